(** Structural lemmas about the selector model (Model/Select.v):
    a link as externally driven part + written part and the views through which the model reads it,
    what [apply_stall_gate] does to one link, when it gates, the scoring loop as a fold over the
    scores and a map over the links, and what a select may change.  Float facts come from SelFloatP. *)
From Coq Require Import ZArith List Bool Lia Floats.
From Srtla Require Import Base BaseP Constants FConstants Select Run_Sel SelFloatP.
Import ListNotations.
Local Open Scope Z_scope.

(** A link is its externally driven fields plus the fields a select writes ([hid]); the views
    blank written fields: all of them ([pv]), all but the cached multiplier ([pvq]), all but the
    quality cache ([cv]), the quality cache alone ([nc]: what the scoring loop leaves as it was). *)
Definition hid0 : hid := Hd 0 false false 0 0 0 0 0%float 0.
Definition pv (c : link) : link := set_hid c hid0.
Definition pvq (c : link) : link := set_hid c (Hd 0 false false 0 0 0 0 (l_qmult c) 0).
Definition cv (c : link) : link := set_hid c (Hd 0 false false 0 0 0 0 (l_qmult c) (l_qlast c)).
Definition nc (c : link) : link :=
  set_hid c (Hd (l_timeout c) (l_gated c) (l_pulled c) (l_pulls c) (l_latched c) (l_recov c) (l_gevents c) 0%float 0).

Lemma set_hid_eta c : set_hid c (hid_of c) = c.
Proof. now destruct c. Qed.
Lemma hid_of_set_hid c h : hid_of (set_hid c h) = h.
Proof. now destruct h. Qed.
Lemma set_hid_pv c h : set_hid c h = set_hid (pv c) h.
Proof. reflexivity. Qed.
Lemma pv_set_hid c h : pv (set_hid c h) = pv c.
Proof. reflexivity. Qed.
Lemma pv_upd_hid c f : pv (upd_hid c f) = pv c.
Proof. reflexivity. Qed.

Lemma set_hid_ext c c' h h' : pv c = pv c' -> h = h' -> set_hid c h = set_hid c' h'.
Proof. intros E ->. now rewrite (set_hid_pv c), E. Qed.

Lemma set_hid_of_pv_eq c c' : pv c = pv c' -> set_hid c (hid_of c') = c'.
Proof. intros E. rewrite <- (set_hid_eta c') at 2. now apply set_hid_ext. Qed.

(** For the views and the functions of the model [reads v f] holds by computation
    ([fun _ => eq_refl]): both sides project the same fields. *)
Definition reads {A} (v : link -> link) (f : link -> A) : Prop := forall c, f c = f (v c).

Lemma reads_eq {A} (v : link -> link) (f : link -> A) c c' : reads v f -> v c = v c' -> f c = f c'.
Proof. intros R E. now rewrite (R c), (R c'), E. Qed.

Lemma reads_existsb v f l l' :
  reads v f -> Forall2 (fun a b => v a = v b) l l' -> existsb f l = existsb f l'.
Proof.
  intros R. induction 1 as [|a b l l' E H IH]; [reflexivity|]. cbn [existsb].
  now rewrite (reads_eq v f a b R E), IH.
Qed.

Lemma reads_Forall v (P : link -> Prop) l l' :
  reads v P -> Forall2 (fun a b => v a = v b) l l' -> Forall P l -> Forall P l'.
Proof.
  intros R. induction 1 as [|a b l l' E H IH]; intros F; inversion F; subst; constructor; auto.
  now rewrite <- (reads_eq v P a b R E).
Qed.

Definition wfl (c : link) : Prop := wf_linkb c = true.

Lemma forallb_wfl s : forallb wf_linkb s = true <-> Forall wfl s.
Proof. rewrite forallb_forall, Forall_forall. reflexivity. Qed.

Lemma wf_pubb_pv c : wf_pubb c = wf_pubb (pv c).
Proof. reflexivity. Qed.

Lemma is_timed_out_pv c c' now :
  pv c = pv c' -> l_timeout c = l_timeout c' -> is_timed_out c now = is_timed_out c' now.
Proof.
  intros E T. change (is_timed_out (set_hid (pv c) (h_set_timeout (l_timeout c) hid0)) now = is_timed_out c' now).
  now rewrite E, T.
Qed.

Record st := St { s_pulled : bool; s_pulls : Z; s_latched : Z; s_recov : Z; s_gev : Z }.
Definition st_of (c : link) : st := St (l_pulled c) (l_pulls c) (l_latched c) (l_recov c) (l_gevents c).
Definition with_st (c : link) (x : st) : link :=
  set_hid c (Hd (l_timeout c) (l_gated c) (s_pulled x) (s_pulls x) (s_latched x) (s_recov x) (s_gev x)
                (l_qmult c) (l_qlast c)).

Lemma with_st_eta c : with_st c (st_of c) = c.
Proof. now destruct c. Qed.
Lemma st_of_with_st c x : st_of (with_st c x) = x.
Proof. now destruct x. Qed.

(** [update_silence_pull] and [update_stall_latch] on the bookkeeping, the tests of the link given *)
Definition pull_st (silent spoke : bool) (x : st) : st :=
  if silent then St true (if negb (s_pulled x) then s_pulls x + 1 else s_pulls x) (s_latched x) (s_recov x) (s_gev x)
  else if negb (s_pulled x) then x
  else if spoke then St false (s_pulls x) (s_latched x) (s_recov x) (s_gev x) else x.

Definition latch_st (stalled pfs fresh : bool) (dwell now : Z) (x : st) : st :=
  if stalled || (s_pulled x && pfs) then
    St (s_pulled x) (s_pulls x) (if s_latched x =? 0 then now else s_latched x) 0
       (if s_latched x =? 0 then s_gev x + 1 else s_gev x)
  else if s_latched x =? 0 then x
  else if negb fresh then St (s_pulled x) (s_pulls x) (s_latched x) 0 (s_gev x)
  else let r := if s_recov x =? 0 then now else s_recov x in
       if dwell <=? ssub now r then St (s_pulled x) (s_pulls x) 0 0 (s_gev x)
       else St (s_pulled x) (s_pulls x) (s_latched x) r (s_gev x).

Definition spokeb (c : link) (now ceiling : Z) : bool :=
  match l_lastrx c with Some lr => ssub now lr <? pull_window c ceiling | None => false end || negb (l_conn c).
Definition pfsb (c : link) (now ceiling : Z) : bool :=
  negb (l_proof c =? 0) && (eff_stale c ceiling <=? ssub now (l_proof c)).
Definition freshb (c : link) (now ceiling : Z) : bool :=
  negb (l_proof c =? 0) && (ssub now (l_proof c) <? eff_stale c ceiling).
Definition dwellz (c : link) (ceiling : Z) : Z := sat_mul_u64 (eff_stale c ceiling) STALL_REJOIN_DWELL_MULT.

Lemma update_silence_pull_eq c now m s :
  update_silence_pull c now m s = with_st c (pull_st (is_briefly_silent c now m s) (spokeb c now s) (st_of c)).
Proof.
  unfold update_silence_pull, pull_st, spokeb. destruct (is_briefly_silent c now m s).
  - destruct c; cbn. now destruct l_pulled.
  - destruct (negb (l_pulled c)) eqn:E.
    + cbn [st_of s_pulled]. rewrite E. now rewrite with_st_eta.
    + cbn [st_of s_pulled]. rewrite E. destruct (_ || _).
      * now destruct c.
      * now rewrite with_st_eta.
Qed.

Lemma update_stall_latch_eq c now m s :
  update_stall_latch c now m s =
  with_st c (latch_st (is_stalled c now m s) (pfsb c now s) (freshb c now s) (dwellz c s) now (st_of c)).
Proof.
  unfold update_stall_latch, latch_st, pfsb, freshb, dwellz. cbn [st_of s_pulled s_latched s_recov s_gev s_pulls].
  destruct (is_stalled c now m s || _).
  - destruct c; cbn. now destruct (l_latched =? 0).
  - destruct (l_latched c =? 0); [now rewrite with_st_eta|].
    destruct (negb _); [now destruct c|].
    destruct (l_recov c =? 0) eqn:R.
    + cbn. destruct (_ <=? _); now destruct c.
    + destruct (_ <=? _); now destruct c.
Qed.

Definition gate_st (silent spoke stalled pfs fresh : bool) (dwell now : Z) (x : st) : st :=
  latch_st stalled pfs fresh dwell now (pull_st silent spoke x).
Definition gate_st_of (now : Z) (cfg : config) (c : link) (x : st) : st :=
  gate_st (is_briefly_silent c now (c_minif cfg) (c_stale cfg)) (spokeb c now (c_stale cfg))
     (is_stalled c now (c_minif cfg) (c_stale cfg)) (pfsb c now (c_stale cfg)) (freshb c now (c_stale cfg))
     (dwellz c (c_stale cfg)) now x.

Lemma gate_st_of_pv now cfg c c' x : pv c = pv c' -> gate_st_of now cfg c x = gate_st_of now cfg c' x.
Proof. exact (reads_eq pv (fun c => gate_st_of now cfg c x) c c' (fun _ => eq_refl)). Qed.

Definition gate_off (cfg : config) (c : link) : link :=
  clear_stall_latch (upd_hid (upd_hid (upd_hid c (h_set_timeout (c_timeout cfg))) (h_set_gated false)) (h_set_pulled false)).
Definition gate_upd (now : Z) (cfg : config) (c : link) : link :=
  update_stall_latch (update_silence_pull (upd_hid c (h_set_timeout (c_timeout cfg))) now (c_minif cfg) (c_stale cfg))
                     now (c_minif cfg) (c_stale cfg).
Definition gate_set (ah : bool) (c : link) : link :=
  upd_hid c (h_set_gated (ah && (stall_latched c || l_pulled c))).

Lemma apply_stall_gate_eq ls now cfg :
  apply_stall_gate ls now cfg =
  if negb (c_stall cfg) then map (gate_off cfg) ls
  else let ls2 := map (gate_upd now cfg) ls in
       map (gate_set (existsb (healthy now) ls2)) ls2.
Proof.
  unfold apply_stall_gate. cbv zeta.
  now rewrite !(map_map (fun c => upd_hid c (h_set_timeout (c_timeout cfg)))).
Qed.

Lemma gate_upd_eq now cfg c :
  gate_upd now cfg c = with_st (upd_hid c (h_set_timeout (c_timeout cfg))) (gate_st_of now cfg c (st_of c)).
Proof.
  unfold gate_upd. set (c0 := upd_hid c _). rewrite update_silence_pull_eq, update_stall_latch_eq, st_of_with_st.
  (* the links the two updates act on differ from [c] in written fields only: their tests are those
     of [c].  Folding the nested [with_st] first keeps the comparison of the tests from being repeated
     for every field. *)
  rewrite (gate_st_of_pv now cfg c c0) by reflexivity. unfold gate_st_of, gate_st. set (p := pull_st _ _ _).
  change (with_st (with_st c0 p)) with (with_st c0). reflexivity.
Qed.

Lemma pvq_gate_off cfg c : pvq (gate_off cfg c) = pvq c.
Proof. reflexivity. Qed.

Definition gate_rel (cfg : config) (c c1 : link) : Prop :=
  cv c1 = cv c /\ l_timeout c1 = c_timeout cfg.

Lemma gate_upd_rel now cfg ah c : gate_rel cfg c (gate_set ah (gate_upd now cfg c)).
Proof. rewrite gate_upd_eq. split; reflexivity. Qed.

Lemma apply_stall_gate_rel ls now cfg :
  Forall2 (gate_rel cfg) ls (apply_stall_gate ls now cfg).
Proof.
  rewrite apply_stall_gate_eq. destruct (negb (c_stall cfg)).
  - apply Forall2_map_r. intros c. split; reflexivity.
  - cbv zeta. rewrite map_map. apply Forall2_map_r. intros c. apply gate_upd_rel.
Qed.

Definition eligible (now : Z) (c : link) : bool :=
  l_conn c && negb (is_timed_out c now) && is_schedulable c.
Definition ok_link (now : Z) (c : link) : bool := eligible now c && negb (l_gated c).

Lemma usable_spec_eq now cfg c :
  usable_spec now (c_timeout cfg) c = eligible now (upd_hid c (h_set_timeout (c_timeout cfg))).
Proof.
  unfold usable_spec, eligible, is_timed_out, is_schedulable, ssub.
  cbn [upd_hid set_hid hid_of h_set_timeout h_timeout l_conn l_phase l_lastrx l_timeout].
  destruct (l_conn c); [|reflexivity].
  destruct (l_phase c), (l_lastrx c); cbn [negb andb]; rewrite ?andb_true_r, ?andb_false_r; try reflexivity;
    apply Z.ltb_antisym.
Qed.

Lemma usable_spec_eligible now cfg c c1 :
  gate_rel cfg c c1 -> eligible now c1 = usable_spec now (c_timeout cfg) c.
Proof.
  intros (Eq & Et). rewrite usable_spec_eq.
  change (eligible now c1) with (eligible now (set_hid (pv c1) (h_set_timeout (l_timeout c1) hid0))).
  now rewrite Et, (reads_eq cv pv c1 c (fun _ => eq_refl) Eq).
Qed.

Lemma gate_spares_one ls now cfg :
  existsb (usable_spec now (c_timeout cfg)) ls = true ->
  existsb (ok_link now) (apply_stall_gate ls now cfg) = true.
Proof.
  intros U. apply existsb_exists in U. destruct U as (c & Hin & U).
  rewrite apply_stall_gate_eq. destruct (negb (c_stall cfg)).
  - apply existsb_exists. exists (gate_off cfg c). split; [now apply in_map|].
    unfold ok_link. rewrite (usable_spec_eligible now cfg c), U; [reflexivity|]. split; reflexivity.
  - cbv zeta. set (ls2 := map (gate_upd now cfg) ls). destruct (existsb (healthy now) ls2) eqn:Hah.
    + (* some healthy link exists: it is eligible and not gated *)
      apply existsb_exists in Hah. destruct Hah as (v & Hv & Hh).
      apply existsb_exists. exists (gate_set true v). split; [now apply in_map|].
      change (ok_link now (gate_set true v)) with (eligible now v && negb (stall_latched v || l_pulled v)).
      revert Hh. unfold healthy, eligible.
      destruct (l_conn v); [|discriminate]. destruct (is_timed_out v now); [discriminate|].
      destruct (is_schedulable v); [|discriminate]. destruct (stall_latched v); [discriminate|].
      now destruct (l_pulled v).
    + apply existsb_exists. exists (gate_set false (gate_upd now cfg c)). split.
      * apply in_map. now apply in_map.
      * unfold ok_link. now rewrite (usable_spec_eligible now cfg c _ (gate_upd_rel now cfg false c)), U.
Qed.

Lemma ok_link_not_skipped now c : ok_link now c = true -> skipped now c = false /\ l_conn c = true.
Proof.
  unfold ok_link, eligible, skipped.
  destruct (l_conn c); [|discriminate]. destruct (is_timed_out c now); [discriminate|].
  destruct (is_schedulable c); [|discriminate]. now destruct (l_gated c).
Qed.

Lemma unconstrained_scored now c :
  unconstrained now c = true ->
  l_conn c = true /\ skipped now c = false /\ in_flight_cap_exceeded c = false.
Proof.
  unfold unconstrained, skipped.
  destruct (l_conn c); [|discriminate]. destruct (is_timed_out c now); [discriminate|].
  destruct (is_schedulable c); [|discriminate]. destruct (l_weak c); [discriminate|].
  destruct (l_lossdeg c); [discriminate|]. destruct (l_gated c); [discriminate|].
  now destruct (in_flight_cap_exceeded c).
Qed.

Lemma classic_loop_keeps ls now : forall i b s, b <> None -> classic_loop ls now i b s <> None.
Proof.
  induction ls as [|c t IH]; intros i b s Hb; cbn [classic_loop]; [exact Hb|].
  destruct (skipped now c); [now apply IH|].
  destruct (s <? get_score c); apply IH; [discriminate | exact Hb].
Qed.

Lemma classic_loop_bound ls now : forall i b s r,
  (forall k, b = Some k -> (k < i)%nat) ->
  classic_loop ls now i b s = Some r -> (r < i + length ls)%nat.
Proof.
  induction ls as [|c t IH]; intros i b s r Hb; cbn [classic_loop length].
  - intros E. apply Hb in E. lia.
  - assert (Hb' : forall k, b = Some k -> (k < S i)%nat) by (intros k E; apply Hb in E; lia).
    destruct (skipped now c).
    + intros E. apply IH in E; [lia | exact Hb'].
    + destruct (s <? get_score c); intros E; apply IH in E; try lia; try exact Hb'.
      intros k Ek. inversion Ek. lia.
Qed.

Lemma classic_loop_hit ls now : forall i b s,
  (b = None -> s = -1) ->
  (exists c, In c ls /\ ok_link now c = true /\ 0 <= get_score c) ->
  classic_loop ls now i b s <> None.
Proof.
  induction ls as [|c t IH]; intros i b s Hinv (u & Hin & Hok & Hs); [easy|].
  cbn [classic_loop]. destruct Hin as [->|Hin].
  - destruct (ok_link_not_skipped _ _ Hok) as (-> & _).
    destruct (s <? get_score u) eqn:L.
    + apply classic_loop_keeps. discriminate.
    + apply classic_loop_keeps. intros ->. rewrite Hinv in L by reflexivity.
      apply Z.ltb_ge in L. lia.
  - destruct (skipped now c).
    + apply IH; [exact Hinv | now exists u].
    + destruct (s <? get_score c).
      * apply IH; [discriminate | now exists u].
      * apply IH; [exact Hinv | now exists u].
Qed.

(** the scoring loop reads the exp values with [hd 1] / [tl]: a list that runs short is padded with 1 *)
Fixpoint map_exps {A} (f : float -> link -> A) (ls : list link) (exps : list float) : list A :=
  match ls with
  | [] => []
  | c :: t => f (hd 1%float exps) c :: map_exps f t (tl exps)
  end.

Lemma map_exps_length {A} (f : float -> link -> A) ls : forall exps, length (map_exps f ls exps) = length ls.
Proof. induction ls; intros; cbn [map_exps length]; auto. Qed.

Lemma map_exps_Forall2 {A} (f : float -> link -> A) (P : float -> Prop) (R : link -> A -> Prop) :
  P 1%float -> (forall e c, P e -> R c (f e c)) ->
  forall ls exps, Forall P exps -> Forall2 R ls (map_exps f ls exps).
Proof.
  intros P1 H. induction ls as [|c t IH]; intros exps He; cbn [map_exps]; constructor.
  - apply H. now apply Forall_hd_tl.
  - apply IH. now apply (Forall_hd_tl P 1%float).
Qed.

Lemma map_exps_again {A} (f : float -> link -> A) (g : float -> link -> link) :
  (forall e e' c, f e' (g e c) = f e c) ->
  forall ls exps exps', map_exps f (map_exps g ls exps) exps' = map_exps f ls exps.
Proof. intros H. induction ls; intros; cbn [map_exps]; [reflexivity|]. now rewrite H, IHls. Qed.

Lemma map_exps_In {A} (f : float -> link -> A) (P : float -> Prop) :
  P 1%float -> forall ls exps, Forall P exps ->
  (forall c, In c ls -> exists e, P e /\ In (f e c) (map_exps f ls exps)) /\
  (forall x, In x (map_exps f ls exps) -> exists e c, P e /\ In c ls /\ x = f e c).
Proof.
  intros P1. induction ls as [|a t IH]; intros exps He; cbn [map_exps In]; [split; intros ? []|].
  destruct (Forall_hd_tl P 1%float exps P1 He) as (Ph & Pt). destruct (IH (tl exps) Pt) as (I1 & I2).
  split.
  - intros c [<-|Hc]; [now exists (hd 1%float exps); auto|].
    destruct (I1 c Hc) as (e & Pe & H). exists e. auto.
  - intros x [<-|Hx]; [now exists (hd 1%float exps), a; auto|].
    destruct (I2 x Hx) as (e & c & Pe & Hc & ->). exists e, c. auto.
Qed.

Lemma exps_ok exps : forallb exp_okb exps = true -> Forall (fun e => exp_okb e = true) exps.
Proof. intros H. now apply Forall_forall, forallb_forall. Qed.

Definition link_score (au q : bool) (now : Z) (e : float) (c : link) : option float :=
  option_map fst (score_link au q now e c).
Definition link_after (au q : bool) (now : Z) (e : float) (c : link) : link :=
  match score_link au q now e c with Some (_, c') => c' | None => c end.
Definition score_list (ls : list link) (exps : list float) (au q : bool) (now : Z) : list (option float) :=
  map_exps (link_score au q now) ls exps.
Definition links_after (ls : list link) (exps : list float) (au q : bool) (now : Z) : list link :=
  map_exps (link_after au q now) ls exps.

Fixpoint pick (scs : list (option float)) (last : option nat) (i : nat) (a : eacc) : eacc :=
  match scs with
  | [] => a
  | None :: t => pick t last (S i) a
  | Some s :: t =>
      let cur := if onat_eqb (Some i) last then Some s else ea_cur a in
      pick t last (S i) (if (ea_score a <? s)%float then EA (Some i) s cur else EA (ea_best a) (ea_score a) cur)
  end.

Lemma enh_loop_eq ls : forall exps au q last now i a,
  enh_loop ls exps au q last now i a =
  (pick (score_list ls exps au q now) last i a, links_after ls exps au q now).
Proof.
  induction ls as [|c t IH]; intros; cbn [enh_loop]; [reflexivity|].
  unfold score_list, links_after. cbn [map_exps]. unfold link_score, link_after.
  destruct (score_link au q now (hd 1%float exps) c) as [(s, c')|]; cbn [option_map fst pick]; now rewrite IH.
Qed.

Lemma onat_eqb_eq a b : onat_eqb a b = true -> a = b.
Proof.
  destruct a, b; cbn; try easy. intros H. apply Nat.eqb_eq in H. now subst.
Qed.

Definition decide (last : option nat) (a : eacc) : option nat :=
  match last with
  | Some l =>
      if negb (onat_eqb (ea_best a) (Some l)) then
        match ea_cur a with
        | Some cur => if (ea_score a <? cur * SWITCH_THRESHOLD)%float then Some l else ea_best a
        | None => ea_best a
        end
      else ea_best a
  | None => ea_best a
  end.
Definition a0 : eacc := EA None (-1)%float None.

Lemma enhanced_select_eq ls last now q exps :
  enhanced_select ls last now q exps =
  let au := existsb (unconstrained now) ls in
  (decide last (pick (score_list ls exps au q now) last 0 a0), links_after ls exps au q now).
Proof. unfold enhanced_select. now rewrite enh_loop_eq. Qed.

Definition scorable (au quality : bool) (now : Z) (c : link) : Prop :=
  forall e, exp_okb e = true ->
  exists s c', score_link au quality now e c = Some (s, c') /\ ((-1)%float <? s)%float = true.

Lemma score_link_some au q now e c :
  skipped now c = false -> au && in_flight_cap_exceeded c = false ->
  exists s c', score_link au q now e c = Some (s, c').
Proof.
  intros Hs Hc. unfold score_link. rewrite Hs, Hc.
  destruct (negb q); [eauto|]. destruct (cached_quality c now e); eauto.
Qed.

Lemma scorable_of au q now c :
  wf_linkb c = true -> l_conn c = true -> skipped now c = false ->
  au && in_flight_cap_exceeded c = false -> scorable au q now c.
Proof.
  intros Hw Hc Hs Hcap e He.
  destruct (score_link_some au q now e c Hs Hcap) as (s & c' & E).
  exists s, c'. split; [exact E|]. eapply score_link_above_floor; eauto.
Qed.

Lemma scorable_exists ls now q :
  Forall wfl ls -> existsb (ok_link now) ls = true ->
  exists c, In c ls /\ scorable (existsb (unconstrained now) ls) q now c.
Proof.
  intros Hwf Hok. apply existsb_exists in Hok. destruct Hok as (u & Hin & Hu).
  rewrite Forall_forall in Hwf.
  destruct (ok_link_not_skipped _ _ Hu) as (Hs & Hc).
  set (au := existsb (unconstrained now) ls).
  destruct (au && in_flight_cap_exceeded u) eqn:E.
  - (* [u] is over its cap and the cap applies: some link is unconstrained, and that one is scored *)
    apply andb_true_iff in E. destruct E as (Eau & _). unfold au in Eau.
    apply existsb_exists in Eau. destruct Eau as (v & Hv & Hun).
    destruct (unconstrained_scored _ _ Hun) as (Hcv & Hsv & Hcapv).
    exists v. split; [exact Hv|].
    apply scorable_of; [now apply Hwf | exact Hcv | exact Hsv | now rewrite Hcapv, andb_false_r].
  - exists u. split; [exact Hin|]. apply scorable_of; auto. now apply Hwf.
Qed.

Lemma score_link_nc {au q now e c s c'} : score_link au q now e c = Some (s, c') -> nc c = nc c'.
Proof.
  unfold score_link. destruct (skipped now c); [discriminate|].
  destruct (au && in_flight_cap_exceeded c); [discriminate|].
  destruct (negb q); [now intros [= _ <-]|].
  unfold cached_quality. destruct (_ <=? _); now intros [= _ <-].
Qed.

Lemma score_link_pv {au q now e c s c'} : score_link au q now e c = Some (s, c') -> pv c' = pv c.
Proof. intros E. exact (reads_eq nc pv c' c (fun _ => eq_refl) (eq_sym (score_link_nc E))). Qed.

Lemma score_link_wf {au q now e c s c'} :
  score_link au q now e c = Some (s, c') -> wfl c -> exp_okb e = true -> wfl c'.
Proof.
  unfold score_link. destruct (skipped now c); [discriminate|].
  destruct (au && in_flight_cap_exceeded c); [discriminate|].
  destruct (negb q); [now intros [= _ <-]|].
  destruct (cached_quality c now e) as (qq, c1) eqn:Eq. intros [= _ <-] Hw He.
  now destruct (cached_quality_range c now e qq c1 Hw He Eq).
Qed.

Lemma link_after_pv au q now e c : pv (link_after au q now e c) = pv c.
Proof.
  unfold link_after. destruct (score_link au q now e c) as [(s, c')|] eqn:E; [|reflexivity].
  exact (score_link_pv E).
Qed.

Definition link_rel (c c' : link) : Prop := pv c' = pv c /\ (wfl c -> wfl c').

Lemma links_after_rel ls exps au q now :
  forallb exp_okb exps = true -> Forall2 link_rel ls (links_after ls exps au q now).
Proof.
  intros He. apply (map_exps_Forall2 _ (fun e => exp_okb e = true)); [reflexivity| |now apply exps_ok].
  intros e c Pe. split; [apply link_after_pv|]. unfold link_after.
  destruct (score_link au q now e c) as [(s, c')|] eqn:E; [|auto]. intros Hw. exact (score_link_wf E Hw Pe).
Qed.

Lemma links_after_pv ls exps au q now :
  Forall2 (fun c c' => pv c' = pv c) ls (links_after ls exps au q now).
Proof.
  apply (map_exps_Forall2 _ (fun _ => True)); [exact I | intros; apply link_after_pv | now apply Forall_forall].
Qed.

Lemma links_after_nc ls exps au q now : Forall2 (fun c c' => nc c = nc c') ls (links_after ls exps au q now).
Proof.
  apply (map_exps_Forall2 _ (fun _ => True)); auto; [|now apply Forall_forall].
  intros e c _. unfold link_after. destruct (score_link au q now e c) as [(s, c')|] eqn:E; [|reflexivity].
  exact (score_link_nc E).
Qed.

Lemma gate_rel_pv cfg c c1 : gate_rel cfg c c1 -> pv c1 = pv c.
Proof. intros (Eq & _). exact (reads_eq cv pv c1 c (fun _ => eq_refl) Eq). Qed.

Lemma gate_link_rel ls now cfg : Forall2 link_rel ls (apply_stall_gate ls now cfg).
Proof.
  pose proof (apply_stall_gate_rel ls now cfg) as R.
  induction R as [|c c1 l l1 G R IH]; constructor; auto.
  split; [exact (gate_rel_pv cfg c c1 G)|]. destruct G as (Eq & _).
  unfold wfl. now rewrite (reads_eq cv wf_linkb c1 c (fun _ => eq_refl) Eq).
Qed.

Lemma link_rel_refl l : Forall2 link_rel l l.
Proof. apply Forall2_reflexive. now split. Qed.

(** What a select leaves alone, whatever the inputs: the gate pass, then nothing (classic) or the
    scoring loop (enhanced). *)
Theorem select_pv ls last now cfg exps :
  Forall2 (fun c c' => pv c' = pv c) ls (snd (select ls last now cfg exps)).
Proof.
  refine (Forall2_comp (gate_rel cfg) (fun c c' => pv c' = pv c) _ _ _ _ _ (apply_stall_gate_rel ls now cfg) _).
  - intros a b c G E. now rewrite E, (gate_rel_pv cfg a b G).
  - unfold select. destruct (c_mode cfg); [now apply Forall2_reflexive|].
    rewrite enhanced_select_eq. apply links_after_pv.
Qed.

Theorem select_rel ls last now cfg exps :
  forallb exp_okb exps = true -> Forall2 link_rel ls (snd (select ls last now cfg exps)).
Proof.
  intros He. unfold select. destruct (c_mode cfg); [apply gate_link_rel|].
  rewrite enhanced_select_eq. refine (Forall2_trans link_rel _ _ _ _ (gate_link_rel ls now cfg) (links_after_rel _ _ _ _ _ He)).
  intros x y z (P1 & W1) (P2 & W2). split; [congruence | auto].
Qed.

Lemma link_rel_wf l l' : Forall2 link_rel l l' -> Forall wfl l -> Forall wfl l'.
Proof.
  induction 1 as [|a b l l' (_ & W) H IH]; intros F; inversion F; subst; constructor; auto.
Qed.

Lemma gate_wf ls now cfg : Forall wfl ls -> Forall wfl (apply_stall_gate ls now cfg).
Proof. apply link_rel_wf, gate_link_rel. Qed.

Theorem select_wf ls last now cfg exps :
  forallb exp_okb exps = true -> Forall wfl ls -> Forall wfl (snd (select ls last now cfg exps)).
Proof. intros He. apply link_rel_wf. now apply select_rel. Qed.

Lemma set_hids_track s s' : Forall2 link_rel s s' -> set_hids s (map hid_of s') = s'.
Proof.
  induction 1 as [|c c' l l' (P & _) H IH]; [reflexivity|].
  cbn [map set_hids]. rewrite IH. f_equal. apply set_hid_of_pv_eq. now symmetry.
Qed.

Lemma upd_nth_wf s i l : Forall wfl s -> wf_pubb l = true -> Forall wfl (upd_nth s i l).
Proof.
  intros H Hl. revert i. induction H as [|c t Hc Ht IH]; intros i; [destruct i; constructor|].
  destruct i; cbn [upd_nth]; constructor; auto.
  unfold wfl, wf_linkb in *. apply andb_true_iff in Hc. destruct Hc as (_ & Hq).
  apply andb_true_iff. split; [exact Hl | exact Hq].
Qed.

Lemma model_select_state s last now cfg exps :
  forallb exp_okb exps = true ->
  let '(o, s') := model_select s last now cfg exps in
  set_hids s (o_hid o) = s' /\ (Forall wfl s -> Forall wfl s').
Proof.
  intros He. unfold model_select.
  pose proof (select_rel s last now cfg exps He) as R.
  pose proof (select_wf s last now cfg exps He) as W.
  destruct (select s last now cfg exps) as (r, s'). cbn [snd o_hid] in *.
  split; [now apply set_hids_track | exact W].
Qed.

Lemma model_select_res s last now cfg exps o s' :
  model_select s last now cfg exps = (o, s') -> select s last now cfg exps = (o_res o, s').
Proof. unfold model_select. destruct (select s last now cfg exps). now intros [= <- <-]. Qed.

(** [model_trace s tr]: [tr] is a trace of the model from the link set [s] under well-formed inputs;
    [track], by which the monitors follow the link set, yields the model's next state. *)
Definition model_event (s : list link) (ev : event) : Prop :=
  match ev with
  | ES last now cfg exps o =>
      Forall wfl s /\ forallb exp_okb exps = true /\ model_select s last now cfg exps = (o, track s ev)
  | _ => True
  end.

Inductive model_trace : list link -> list event -> Prop :=
| MT_nil s : model_trace s []
| MT_cons s ev tr : model_event s ev -> model_trace (track s ev) tr -> model_trace s (ev :: tr).

Lemma run_from_trace ops : forall s, Forall wfl s -> wf_opsb ops = true -> model_trace s (run_from s ops).
Proof.
  induction ops as [|o r IH]; intros s Hs Hw; [constructor|].
  cbn [wf_opsb forallb] in Hw. apply andb_true_iff in Hw. destruct Hw as (Ho & Hr).
  destruct o as [ls|k l|last now cfg exps]; cbn [run_from].
  - constructor; [exact I|]. apply IH; [now apply forallb_wfl | exact Hr].
  - constructor; [exact I|]. apply IH; [now apply upd_nth_wf | exact Hr].
  - cbn [wf_opb] in Ho. pose proof (model_select_state s last now cfg exps Ho) as T.
    destruct (model_select s last now cfg exps) as (o, s') eqn:E. destruct T as (T1 & T2).
    constructor; cbn [model_event track]; rewrite T1; [auto|]. apply IH; [now apply T2 | exact Hr].
Qed.
