(** What a routing decision does to one link ([decided]: accounting and aux fields
    untouched, guard fields [gate_guard] of its own pre-state up to the gated flag, timeout
    refreshed), and how [step] acts on the link at one index. *)
From Coq Require Import Floats ZifyBool.
From Srtla Require Import Base Constants Stall StallSel StallOps BaseP.
(* [StallOps.upd_nth] has the body of [Conn.upd]: ConnP's lemmas about [upd] apply to it by conversion *)
From Srtla Require ConnP.
Local Open Scope Z_scope.

Lemma pull_step_frame a x now mn ceil g : exists b n,
  pull_step a x now mn ceil g = mkG (g_gated g) (g_latched g) (g_recovery g) (g_events g) (g_probe g) b n /\
  g_pulls g <= n <= g_pulls g + 1.
Proof.
  unfold pull_step. destruct (briefly_silent a x now mn ceil).
  - eexists _, _. split; [reflexivity | destruct (g_pulled g); lia].
  - destruct (negb (g_pulled g)), (spoke a x now ceil || negb (a_conn a));
      try (exists (g_pulled g), (g_pulls g); destruct g; split; [reflexivity | cbn; lia]).
    eexists _, _. split; [reflexivity | lia].
Qed.

Lemma latch_step_frame a x now mn ceil g : exists lt rc ev,
  latch_step a x now mn ceil g = mkG (g_gated g) lt rc ev (g_probe g) (g_pulled g) (g_pulls g) /\
  g_events g <= ev <= g_events g + 1.
Proof.
  assert (Same : exists lt rc ev, g = mkG (g_gated g) lt rc ev (g_probe g) (g_pulled g) (g_pulls g) /\
                                  g_events g <= ev <= g_events g + 1).
  { exists (g_latched g), (g_recovery g), (g_events g). destruct g. split; [reflexivity | cbn; lia]. }
  unfold latch_step.
  destruct (is_stalled a x now mn ceil || _), (g_latched g =? 0); try exact Same;
    try (eexists _, _, _; split; [reflexivity | lia]).
  destruct (negb (proof_fresh a x now ceil)); [|destruct (dwell x ceil <=? _)];
    eexists _, _, _; (split; [reflexivity | lia]).
Qed.

Definition ungate (g : guard) : guard :=
  mkG false (g_latched g) (g_recovery g) (g_events g) (g_probe g) (g_pulled g) (g_pulls g).

Definition decided (now : Z) (cfg : config) (l l' : link) : Prop :=
  la l' = la l /\ lx l' = lx l /\
  ungate (lg l') = ungate (gate_guard now cfg (la l) (lx l) (lg l)) /\
  c_ctimeout (lc l') = cf_ctimeout cfg.

Lemma decided_acct {now cfg l l'} : decided now cfg l l' -> la l' = la l.
Proof. intros (A & _). exact A. Qed.
Lemma decided_aux {now cfg l l'} : decided now cfg l l' -> lx l' = lx l.
Proof. intros (_ & X & _). exact X. Qed.
Lemma decided_guard {now cfg l l'} :
  decided now cfg l l' -> ungate (lg l') = ungate (gate_guard now cfg (la l) (lx l) (lg l)).
Proof. intros (_ & _ & U & _). exact U. Qed.
Lemma decided_timeout {now cfg l l'} : decided now cfg l l' -> c_ctimeout (lc l') = cf_ctimeout cfg.
Proof. intros (_ & _ & _ & C). exact C. Qed.

Definition cache_only (l l' : link) : Prop :=
  la l' = la l /\ lg l' = lg l /\ lx l' = lx l /\ c_ctimeout (lc l') = c_ctimeout (lc l).

Lemma cache_only_skipped now l l' : cache_only l l' -> skipped now l' = skipped now l.
Proof.
  intros (Ea & Eg & Ex & Ec). unfold skipped, timed_out, schedulable. rewrite Ea, Eg, Ec. reflexivity.
Qed.

Lemma enh_go_cache_only : forall now quality any last ls ins i acc,
  Forall2 cache_only ls (fst (enh_go now quality any last ls ins i acc)).
Proof.
  induction ls as [|l t IH]; intros ins i acc; cbn [enh_go].
  - constructor.
  - destruct (skipped now l || (any && si_capx (hd selin0 ins))).
    + specialize (IH (tl ins) (i + 1) acc).
      destruct (enh_go now quality any last t (tl ins) (i + 1) acc) as [t' acc'] eqn:E.
      cbn [fst] in *. constructor; [repeat split; reflexivity | exact IH].
    + match goal with |- context [enh_go now quality any last t (tl ins) (i + 1) ?a] =>
        specialize (IH (tl ins) (i + 1) a);
        destruct (enh_go now quality any last t (tl ins) (i + 1) a) as [t' acc'] eqn:E end.
      cbn [fst] in *. constructor; [| exact IH].
      repeat split; cbn [la lg lx lc]; try reflexivity.
      destruct quality; [|reflexivity]. unfold refresh_quality.
      destruct (QUALITY_CACHE_INTERVAL_MS <=? ssub now (c_qcalc (lc l))); reflexivity.
Qed.

Lemma gate_stage_decided : forall now cfg ls,
  Forall2 (decided now cfg) ls (apply_stall_gate now cfg ls).
Proof.
  intros now cfg ls. unfold apply_stall_gate. cbn zeta.
  destruct (cf_guard cfg); [rewrite map_map|]; apply Forall2_map_r; intros l; repeat split; reflexivity.
Qed.

Lemma decided_cache_only : forall now cfg l l1 l2,
  decided now cfg l l1 -> cache_only l1 l2 -> decided now cfg l l2.
Proof.
  intros now cfg l l1 l2 (A & B & C & D) (A' & B' & C' & D'). unfold decided. rewrite A', B', C', D'. auto.
Qed.

Lemma cache_only_refl : forall ls, Forall2 cache_only ls ls.
Proof. apply Forall2_reflexive. repeat split; reflexivity. Qed.

Lemma select_cache_only : forall cfg last now ins ls,
  Forall2 cache_only (apply_stall_gate now cfg ls) (fst (select cfg last now ins ls)).
Proof.
  intros. unfold select. destruct (cf_classic cfg); [apply cache_only_refl|].
  unfold enhanced_select.
  pose proof (enh_go_cache_only now (cf_quality cfg)
                (any_unconstrained now (apply_stall_gate now cfg ls) ins) last
                (apply_stall_gate now cfg ls) ins 0 (mkE None (-1)%float None)) as H.
  destruct (enh_go now (cf_quality cfg) _ last (apply_stall_gate now cfg ls) ins 0 _) as [ls' acc].
  exact H.
Qed.

Theorem select_decided : forall cfg last now ins ls,
  Forall2 (decided now cfg) ls (fst (select cfg last now ins ls)).
Proof.
  intros. eapply (Forall2_comp _ _ _ (decided_cache_only now cfg));
    [apply gate_stage_decided | apply select_cache_only].
Qed.

Lemma select_length : forall cfg last now ins ls,
  length (fst (select cfg last now ins ls)) = length ls.
Proof. intros. symmetry. eapply Forall2_length. apply select_decided. Qed.

Definition targets (o : op) (i : nat) : bool :=
  match op_target o with Some j => (0 <=? j) && (Z.to_nat j =? i)%nat | None => false end.

Lemma targets_spec : forall o i, targets o i = true <-> op_target o = Some (Z.of_nat i).
Proof.
  intros o i. unfold targets. destruct (op_target o) as [j|]; [|split; discriminate].
  split; [intros H; f_equal; lia | intros [= ->]; lia].
Qed.

Lemma step_env_nth : forall s o i,
  op_target o <> None ->
  nth_error (fst (step s o)) i =
  if targets o i then option_map (env_link o) (nth_error s i) else nth_error s i.
Proof.
  intros s o i Ht. unfold targets.
  destruct o; cbn [step op_target] in *; try congruence;
  match goal with |- context [if ?j <? 0 then _ else _] =>
    destruct (Z.ltb_spec j 0); cbn [fst];
    [ replace (0 <=? j) with false by lia; reflexivity
    | replace (0 <=? j) with true by lia; rewrite ConnP.nth_error_upd_if; cbn [andb]; reflexivity ] end.
Qed.

Lemma step_select_nth : forall s last now cfg ins i l,
  nth_error s i = Some l ->
  exists l', nth_error (fst (step s (OSelect last now cfg ins))) i = Some l' /\ decided now cfg l l'.
Proof.
  intros. cbn [step]. eapply Forall2_nth_error_l; [apply select_decided | eassumption].
Qed.

Lemma step_length : forall s o, length (fst (step s o)) = length s.
Proof.
  intros s o. destruct o; cbn [step op_target];
  try (match goal with |- context [if ?j <? 0 then _ else _] => destruct (j <? 0) end; cbn [fst];
       [reflexivity | apply ConnP.upd_length]).
  apply select_length.
Qed.

Lemma env_link_guard : forall o l,
  (forall j, o <> OReset j) -> lg (env_link o l) = lg l.
Proof.
  intros o l H. destruct o; cbn [env_link]; try reflexivity.
  - destruct (known && (0 <? a_logn (la l))); reflexivity.
  - exfalso. eapply H; reflexivity.
Qed.
