(** WireP.v — the codec model (Model/Wire.v): the index-based decoders equal the structural
    layouts of Model/WireSpec.v, every decoder returns on every byte list, the NAK expansion
    is bounded, and every frame a builder produces decodes back to its fields. *)
From Srtla Require Import Base Constants Wire WireSpec BaseP.
From Coq Require Import ZifyBool.
(* [lia] meets [/] in parse_srt_nak_bound and [mod] in to_of_i32 *)
Ltac Zify.zify_post_hook ::= Z.div_mod_to_equations.

Definition total {A} (r : res A) : Prop := exists v, r = Ok v.

Lemma get_ok b i : 0 <= i < blen b -> get b i = Ok (nthz b i).
Proof.
  intros H. unfold get.
  destruct (0 <=? i) eqn:E1; destruct (i <? blen b) eqn:E2; simpl; try reflexivity; lia.
Qed.

Lemma be32_at_ok b i : 0 <= i -> i + 3 < blen b ->
  be32_at b i = Ok (be32 (nthz b i) (nthz b (i+1)) (nthz b (i+2)) (nthz b (i+3))).
Proof. intros H0 H1. unfold be32_at. rewrite !get_ok by lia. reflexivity. Qed.

Lemma be16_at_ok b i : 0 <= i -> i + 1 < blen b ->
  be16_at b i = Ok (be16 (nthz b i) (nthz b (i+1))).
Proof. intros H0 H1. unfold be16_at. rewrite !get_ok by lia. reflexivity. Qed.

Lemma spec_type_nth b : spec_type b = if blen b <? 2 then None else Some (be16 (nthz b 0) (nthz b 1)).
Proof.
  destruct b as [|a [|c t]]; try reflexivity.
  rewrite !blen_cons. pose proof (blen_nonneg t).
  destruct (_ <? 2) eqn:E; [lia|reflexivity].
Qed.

Lemma get_packet_type_spec b : get_packet_type b = Ok (spec_type b).
Proof.
  rewrite spec_type_nth. unfold get_packet_type. destruct (blen b <? 2) eqn:E; [reflexivity|].
  rewrite !get_ok by lia. reflexivity.
Qed.

Lemma skipn_nth {A} (d : A) : forall n (l : list A), (n < length l)%nat ->
  skipn n l = nth n l d :: skipn (S n) l.
Proof.
  induction n as [|n IH]; intros [|x l] H; cbn in *; try lia; [reflexivity|].
  apply IH. lia.
Qed.

Lemma skipn4 b i : 0 <= i -> i + 3 < blen b ->
  skipn (Z.to_nat i) b =
  nthz b i :: nthz b (i+1) :: nthz b (i+2) :: nthz b (i+3) :: skipn (Z.to_nat (i + 4)) b.
Proof.
  intros H0 H1. unfold nthz, blen in *.
  rewrite 4 (skipn_nth 0) by lia. repeat f_equal; lia.
Qed.

Lemma chunks4_short l : blen l < 4 -> chunks4 l = [].
Proof.
  destruct l as [|a [|b [|c [|d t]]]]; intros H; try reflexivity.
  rewrite !blen_cons in H. pose proof (blen_nonneg t). lia.
Qed.

Lemma blen_skipn {A} n (l : list A) : blen (skipn n l) = Z.max 0 (blen l - Z.of_nat n).
Proof. unfold blen. rewrite skipn_length. lia. Qed.

(** the words of a suffix, one step: the decoders' loops and the structural layout advance alike *)
Lemma chunks4_at b i : 0 <= i ->
  chunks4 (skipn (Z.to_nat i) b) =
  if i + 3 <? blen b
  then be32 (nthz b i) (nthz b (i+1)) (nthz b (i+2)) (nthz b (i+3)) :: chunks4 (skipn (Z.to_nat (i + 4)) b)
  else [].
Proof.
  intros Hi. destruct (i + 3 <? blen b) eqn:E.
  - rewrite (skipn4 b i) by lia. reflexivity.
  - apply chunks4_short. rewrite blen_skipn. lia.
Qed.

Lemma ack_loop_spec fuel : forall b i out,
  0 <= i <= blen b -> blen b - i < 4 * Z.of_nat fuel ->
  ack_loop fuel b i out = Ok (out ++ chunks4 (skipn (Z.to_nat i) b)).
Proof.
  induction fuel as [|f IH]; intros b i out Hi Hf; [lia|].
  cbn [ack_loop]. rewrite (chunks4_at b i) by lia. destruct (i + 3 <? blen b) eqn:E.
  - rewrite be32_at_ok by lia. cbn [bind]. rewrite IH by lia. rewrite <- app_assoc. reflexivity.
  - rewrite app_nil_r. reflexivity.
Qed.

Lemma nak_loop_spec fuel : forall b i out,
  0 <= i <= blen b -> blen b - i < 4 * Z.of_nat fuel ->
  nak_loop fuel b i out = Ok (nak_words (chunks4 (skipn (Z.to_nat i) b)) out).
Proof.
  induction fuel as [|f IH]; intros b i out Hi Hf; [lia|].
  cbn [nak_loop]. rewrite (chunks4_at b i) by lia. destruct (i + 3 <? blen b) eqn:E; [|reflexivity].
  rewrite be32_at_ok by lia. cbn [bind nak_words]. destruct (two31 <=? _).
  - (* a range start: its end is the next word, if there is one *)
    rewrite (chunks4_at b (i + 4)), Z.leb_antisym by lia. destruct (i + 4 + 3 <? blen b) eqn:E2; [|reflexivity].
    cbn [negb]. rewrite be32_at_ok by lia. cbn [bind]. apply IH; lia.
  - apply IH; lia.
Qed.

Theorem parse_srtla_ack_spec b : parse_srtla_ack b = Ok (spec_parse_srtla_ack b).
Proof.
  unfold parse_srtla_ack, spec_parse_srtla_ack. rewrite Z.ltb_antisym, get_packet_type_spec.
  destruct (8 <=? blen b) eqn:E; cbn [negb andb bind]; [|reflexivity].
  destruct (ozeqb _ _); cbn [negb]; [|reflexivity].
  rewrite ack_loop_spec by (unfold blen in *; lia). reflexivity.
Qed.

Theorem parse_srt_nak_spec b : parse_srt_nak b = Ok (spec_parse_srt_nak b).
Proof.
  unfold parse_srt_nak, spec_parse_srt_nak. rewrite Z.ltb_antisym, get_packet_type_spec.
  destruct (8 <=? blen b) eqn:E; cbn [negb andb bind]; [|reflexivity].
  destruct (ozeqb _ _); cbn [negb]; [|reflexivity].
  rewrite nak_loop_spec by (unfold blen in *; lia). reflexivity.
Qed.

Theorem parse_srt_ack_spec b : parse_srt_ack b = Ok (spec_parse_srt_ack b).
Proof.
  unfold parse_srt_ack, spec_parse_srt_ack. rewrite Z.ltb_antisym, get_packet_type_spec.
  destruct (20 <=? blen b) eqn:E; cbn [negb andb bind]; [|reflexivity].
  destruct (spec_type b) as [t|]; [|reflexivity]. cbn [ozeqb opt_eqb].
  destruct (t =? SRT_TYPE_ACK); [|reflexivity].
  rewrite be32_at_ok by lia. change 16%nat with (Z.to_nat 16). rewrite chunks4_at by lia.
  replace (16 + 3 <? blen b) with true by lia. reflexivity.
Qed.

Theorem get_srt_sequence_number_spec b : get_srt_sequence_number b = Ok (spec_seq b).
Proof.
  unfold get_srt_sequence_number, spec_seq. destruct (blen b <? 4) eqn:E.
  { rewrite chunks4_short by lia. reflexivity. }
  rewrite be32_at_ok by lia. cbn [bind].
  pose proof (skipn4 b 0) as H. cbn [Z.to_nat skipn] in H. rewrite H by lia.
  cbn [chunks4]. destruct (_ <? two31); reflexivity.
Qed.

Theorem is_srt_data_retransmit_spec b : is_srt_data_retransmit b = Ok (spec_retransmit b).
Proof.
  unfold is_srt_data_retransmit, spec_retransmit. destruct (8 <=? blen b) eqn:E; [|reflexivity].
  rewrite !get_ok by lia. cbn [bind andb]. destruct (_ <? 128); reflexivity.
Qed.

Lemma total_type_is b t : total (type_is b t).
Proof. unfold type_is. rewrite get_packet_type_spec. eexists; reflexivity. Qed.

Lemma total_is_srtla_reg1 b : total (is_srtla_reg1 b).
Proof. unfold is_srtla_reg1. destruct (_ =? _); [apply total_type_is|eexists; reflexivity]. Qed.
Lemma total_is_srtla_reg2 b : total (is_srtla_reg2 b).
Proof. unfold is_srtla_reg2. destruct (_ =? _); [apply total_type_is|eexists; reflexivity]. Qed.
Lemma total_is_srtla_reg3 b : total (is_srtla_reg3 b).
Proof. unfold is_srtla_reg3. destruct (_ =? _); [apply total_type_is|eexists; reflexivity]. Qed.

Lemma ts_loop_total n : forall b i ts, 0 <= i -> 2 + i + Z.of_nat n <= blen b -> total (ts_loop n b i ts).
Proof.
  induction n as [|n IH]; intros b i ts Hi Hl; cbn [ts_loop]; [eexists; reflexivity|].
  rewrite get_ok by lia. cbn [bind]. apply IH; lia.
Qed.

(** when a timestamp comes out; which one, against [spec_ka_ts], is [RttP.ka_ts_spec] (it needs [bytes_ok]) *)
Lemma extract_keepalive_timestamp_shape b : exists v,
  extract_keepalive_timestamp b =
  Ok (if (10 <=? blen b) && ozeqb (spec_type b) (Some SRTLA_TYPE_KEEPALIVE) then Some v else None).
Proof.
  unfold extract_keepalive_timestamp. rewrite Z.ltb_antisym, get_packet_type_spec.
  destruct (10 <=? blen b) eqn:E; cbn [negb andb bind]; [|exists 0; reflexivity].
  destruct (spec_type b) as [t|]; [|exists 0; reflexivity]. cbn [ozeqb opt_eqb].
  destruct (t =? SRTLA_TYPE_KEEPALIVE); [|exists 0; reflexivity].
  destruct (ts_loop_total 8 b 0 0) as [v ->]; [lia|simpl; lia|]. exists v. reflexivity.
Qed.

Lemma total_extract_keepalive_timestamp b : total (extract_keepalive_timestamp b).
Proof. destruct (extract_keepalive_timestamp_shape b) as [v ->]. eexists; reflexivity. Qed.

Lemma total_extract_keepalive_conn_info b : total (extract_keepalive_conn_info b).
Proof.
  unfold extract_keepalive_conn_info, SRTLA_KEEPALIVE_EXT_LEN.
  destruct (blen b <? 38) eqn:E; [eexists; reflexivity|].
  rewrite get_packet_type_spec, !be16_at_ok, !be32_at_ok by lia. cbn [bind].
  destruct (spec_type b); [|eexists; reflexivity].
  do 3 (destruct (negb _); [eexists; reflexivity|]). eexists; reflexivity.
Qed.

Lemma nak_expand_len fuel : forall s e out,
  blen out <= blen (nak_expand fuel s e out) <= blen out + Z.of_nat fuel.
Proof.
  induction fuel as [|f IH]; intros s e out; cbn [nak_expand]; [lia|].
  destruct (s <=? e); [|lia].
  specialize (IH (wrap_u32 (s + 1)) e (out ++ [s])). rewrite blen_snoc in IH. lia.
Qed.

(** [e < two32]: no wrap-around below the end of the range *)
Lemma nak_expand_full fuel : forall s e out,
  0 <= s -> s + Z.of_nat fuel <= e -> e < two32 ->
  blen (nak_expand fuel s e out) = blen out + Z.of_nat fuel.
Proof.
  induction fuel as [|f IH]; intros s e out Hs Hf He; cbn [nak_expand]; [lia|].
  replace (s <=? e) with true by lia. unfold wrap_u32. rewrite Z.mod_small by lia.
  rewrite IH, blen_snoc by lia. lia.
Qed.

Lemma chunks4_len : forall l, 4 * blen (chunks4 l) <= blen l.
Proof.
  fix IH 1. intros [|a [|b [|c [|d t]]]]; cbn [chunks4]; rewrite ?blen_cons, ?(@blen_nil Z);
    [clear IH; lia..|].
  specialize (IH t). lia.
Qed.

(** a range is expanded with fuel [NAK_RANGE_CAP - blen out], so it cannot cross the cap;
    every entry beyond the cap is a word of its own *)
Lemma nak_words_len : forall ws out, blen (nak_words ws out) <= Z.max NAK_RANGE_CAP (blen out) + blen ws.
Proof.
  (* IH is cleared before each [lia] that does not need it: [lia] may instantiate it at a term
     that is not a subterm, which the guard condition rejects *)
  fix IH 1. intros [|w t] out; cbn [nak_words]; rewrite ?blen_cons, ?(@blen_nil Z); [clear IH; lia|].
  destruct (two31 <=? w).
  - destruct t as [|e t']; rewrite ?blen_cons, ?(@blen_nil Z); [clear IH; pose proof (blen_nonneg out); lia|].
    specialize (IH t' (nak_expand (Z.to_nat (NAK_RANGE_CAP - blen out)) (w - two31) e out)).
    pose proof (nak_expand_len (Z.to_nat (NAK_RANGE_CAP - blen out)) (w - two31) e out). lia.
  - specialize (IH t (out ++ [w])). rewrite blen_snoc in IH. lia.
Qed.

Theorem parse_srt_nak_bound b v :
  parse_srt_nak b = Ok v -> blen v <= 1000 + (blen b - 4) / 4 /\ (blen b < 8 -> v = []).
Proof.
  rewrite parse_srt_nak_spec. intros [= <-]. unfold spec_parse_srt_nak.
  pose proof (blen_nonneg b). destruct (8 <=? blen b) eqn:E; cbn [andb].
  2:{ rewrite blen_nil. split; [lia|reflexivity]. }
  destruct (ozeqb _ _); [|rewrite blen_nil; split; lia].
  pose proof (nak_words_len (chunks4 (skipn 4 b)) []) as Hw. pose proof (chunks4_len (skipn 4 b)) as Hc.
  rewrite blen_skipn in Hc. rewrite blen_nil in Hw. unfold NAK_RANGE_CAP in Hw. split; lia.
Qed.

(** every round trip below is this fact read at the offset of one field *)
Lemma be_fold_be_bytes n : forall acc x,
  be_fold acc (be_bytes n x) = acc * 256 ^ Z.of_nat n + x mod 256 ^ Z.of_nat n.
Proof.
  induction n as [|k IH]; intros acc x; cbn [be_bytes be_fold].
  - change (256 ^ Z.of_nat 0) with 1. rewrite Z.mod_1_r. ring.
  - rewrite IH, Nat2Z.inj_succ, Z.pow_succ_r by apply Nat2Z.is_nonneg.
    rewrite (Z.mul_comm 256), Z.rem_mul_r by (try apply Z.pow_nonzero; lia). ring.
Qed.

Lemma be_bytes_value n x : 0 <= x < 256 ^ Z.of_nat n -> be_fold 0 (be_bytes n x) = x.
Proof. intros H. rewrite be_fold_be_bytes, Z.mod_small by exact H. reflexivity. Qed.

Lemma be_bytes_len n x : length (be_bytes n x) = n.
Proof. induction n; cbn [be_bytes length]; congruence. Qed.

Lemma blen_be_bytes n x : blen (be_bytes n x) = Z.of_nat n.
Proof. unfold blen. rewrite be_bytes_len. reflexivity. Qed.

Lemma be_bytes_ok n x : bytes_ok (be_bytes n x).
Proof.
  induction n; cbn [be_bytes]; constructor; [|assumption].
  apply Z.mod_pos_bound. lia.
Qed.

Lemma spec_type_be_bytes t rest : 0 <= t < 65536 -> spec_type (be_bytes 2 t ++ rest) = Some t.
Proof. intros H. cbn [be_bytes app spec_type]. f_equal. exact (be_bytes_value 2 t H). Qed.

Lemma be16_at_field b i x rest : 0 <= i -> 0 <= x < 65536 ->
  skipn (Z.to_nat i) b = be_bytes 2 x ++ rest -> be16_at b i = Ok x.
Proof.
  intros Hi Hx Hs.
  assert (i + 1 < blen b).
  { apply (f_equal blen) in Hs. rewrite blen_skipn, blen_app, blen_be_bytes in Hs.
    pose proof (blen_nonneg rest). lia. }
  rewrite be16_at_ok by lia. f_equal. rewrite <- (be_bytes_value 2 x Hx).
  rewrite (skipn_nth 0), (skipn_nth 0 (S _)) in Hs by (unfold blen in *; lia).
  unfold nthz. replace (Z.to_nat (i + 1)) with (S (Z.to_nat i)) by lia.
  injection Hs as -> -> _. reflexivity.
Qed.

Lemma be32_at_field b i x rest : 0 <= i -> 0 <= x < two32 ->
  skipn (Z.to_nat i) b = be_bytes 4 x ++ rest -> be32_at b i = Ok x.
Proof.
  intros Hi Hx Hs.
  assert (i + 3 < blen b).
  { apply (f_equal blen) in Hs. rewrite blen_skipn, blen_app, blen_be_bytes in Hs.
    pose proof (blen_nonneg rest). lia. }
  rewrite be32_at_ok by lia. f_equal. rewrite <- (be_bytes_value 4 x Hx).
  rewrite skipn4 in Hs by lia. injection Hs as -> -> -> -> _. reflexivity.
Qed.

Lemma chunks4_concat l : Forall (fun x => 0 <= x < two32) l ->
  chunks4 (concat (map (be_bytes 4) l)) = l.
Proof.
  induction 1 as [|x l Hx _ IH]; [reflexivity|]. cbn [map concat].
  change (be_fold 0 (be_bytes 4 x) :: chunks4 (concat (map (be_bytes 4) l)) = x :: l).
  rewrite IH, (be_bytes_value 4 x Hx). reflexivity.
Qed.

(** the timestamp loop over bytes that cannot overflow a u64 is the plain big-endian fold *)
Lemma ts_loop_be_fold l : forall b i ts rest,
  0 <= i -> skipn (Z.to_nat (2 + i)) b = l ++ rest -> bytes_ok l ->
  0 <= ts -> (ts + 1) * 256 ^ blen l <= two64 ->
  ts_loop (length l) b i ts = Ok (be_fold ts l).
Proof.
  induction l as [|x l IH]; intros b i ts rest Hi Hs Hb Hts Hcap; [reflexivity|].
  inversion Hb as [|? ? Hx Hl]; subst. cbn [length ts_loop be_fold].
  assert (Hlt : (Z.to_nat (2 + i) < length b)%nat).
  { apply (f_equal (@length Z)) in Hs. rewrite skipn_length in Hs. cbn [app length] in Hs. lia. }
  rewrite (skipn_nth 0) in Hs by exact Hlt.
  rewrite get_ok by (unfold blen; lia). unfold nthz.
  set (k := Z.to_nat (2 + i)) in *. injection Hs as -> Hs. cbn [bind].
  rewrite blen_cons, Z.pow_add_r, Z.pow_1_r in Hcap by (try apply blen_nonneg; lia).
  assert (0 < 256 ^ blen l) by (apply Z.pow_pos_nonneg; [lia|apply blen_nonneg]).
  rewrite Z.mod_small by nia.
  apply (IH b (i + 1) _ rest); try assumption; try nia.
  replace (Z.to_nat (2 + (i + 1))) with (S k) by (unfold k; lia). exact Hs.
Qed.

Lemma ts8 n0 n1 n2 n3 n4 n5 n6 n7 pre rest :
  bytes_ok [n0; n1; n2; n3; n4; n5; n6; n7] -> length pre = 2%nat ->
  ts_loop 8 (pre ++ [n0; n1; n2; n3; n4; n5; n6; n7] ++ rest) 0 0 =
  Ok (((((((n0 * 256 + n1) * 256 + n2) * 256 + n3) * 256 + n4) * 256 + n5) * 256 + n6) * 256 + n7).
Proof.
  intros Hb Hp. destruct pre as [|p0 [|p1 [|? ?]]]; try discriminate.
  apply (ts_loop_be_fold [n0; n1; n2; n3; n4; n5; n6; n7] _ 0 0 rest); try assumption; try reflexivity; lia.
Qed.

Lemma type_const_range :
  0 <= SRTLA_TYPE_REG1 < 65536 /\ 0 <= SRTLA_TYPE_REG2 < 65536 /\ 0 <= SRTLA_TYPE_REG3 < 65536 /\
  0 <= SRTLA_TYPE_ACK < 65536 /\ 0 <= SRTLA_TYPE_KEEPALIVE < 65536 /\
  0 <= SRTLA_KEEPALIVE_MAGIC < 65536 /\ 0 <= SRTLA_KEEPALIVE_EXT_VERSION < 65536.
Proof. cbv. repeat split; congruence. Qed.

Theorem ack_roundtrip l : Forall (fun x => 0 <= x < two32) l ->
  parse_srtla_ack (create_ack_packet l) = Ok l.
Proof.
  intros Hl. rewrite parse_srtla_ack_spec. f_equal.
  unfold spec_parse_srtla_ack, create_ack_packet.
  rewrite spec_type_be_bytes, ozeqb_refl, andb_true_r by apply type_const_range.
  change (skipn 4 _) with (concat (map (be_bytes 4) l)). rewrite chunks4_concat by assumption.
  (* only the empty list gives a frame shorter than 8 bytes *)
  destruct l as [|x l']; [reflexivity|].
  replace (8 <=? _) with true; [reflexivity|]. symmetry. apply Z.leb_le.
  cbn [map concat]. rewrite !blen_app, !blen_be_bytes, !blen_cons, blen_nil.
  pose proof (blen_nonneg (concat (map (be_bytes 4) l'))). lia.
Qed.

Definition id_ok (id : list Z) : Prop := length id = 256%nat /\ bytes_ok id.

(** REG1 and REG2 differ in the type code only *)
Lemma reg_packet_layout t id : 0 <= t < 65536 -> length id = 256%nat ->
  blen (be_bytes 2 t ++ id) = 258 /\ type_is (be_bytes 2 t ++ id) t = Ok true /\
  skipn 2 (be_bytes 2 t ++ id) = id.
Proof.
  intros Ht Hl. split; [|split; [|reflexivity]].
  - rewrite blen_app, blen_be_bytes. unfold blen. rewrite Hl. reflexivity.
  - unfold type_is. rewrite get_packet_type_spec, spec_type_be_bytes by exact Ht.
    cbn [bind]. rewrite ozeqb_refl. reflexivity.
Qed.

Lemma ka_ts_build now rest : 0 <= now < two64 ->
  extract_keepalive_timestamp (create_keepalive_packet now ++ rest) = Ok (Some now).
Proof.
  intros H. unfold extract_keepalive_timestamp, create_keepalive_packet. rewrite <- app_assoc.
  destruct (blen _ <? 10) eqn:E.
  { rewrite !blen_app, !blen_be_bytes in E. pose proof (blen_nonneg rest). lia. }
  rewrite get_packet_type_spec, spec_type_be_bytes by apply type_const_range.
  cbn [bind]. rewrite Z.eqb_refl.
  rewrite (ts_loop_be_fold (be_bytes 8 now) _ 0 0 rest), (be_bytes_value 8 now H);
    [reflexivity|lia|reflexivity|apply be_bytes_ok|lia|rewrite blen_be_bytes; reflexivity].
Qed.

Definition info_ok (info : list Z) : Prop :=
  match info with
  | [cid; w; inf; rtt; nak; br] =>
    0 <= cid < two32 /\ i32_min <= w <= i32_max /\ i32_min <= inf <= i32_max /\
    0 <= rtt < two32 /\ 0 <= nak < two32 /\ 0 <= br < two32
  | _ => False
  end.

Lemma to_of_i32 x : i32_min <= x <= i32_max -> to_i32 (of_i32 x) = x /\ 0 <= of_i32 x < two32.
Proof.
  unfold to_i32, of_i32, i32_min, i32_max, two31, two32. intros H.
  destruct (_ <=? _) eqn:E; lia.
Qed.

Theorem ka_ext_roundtrip info now : info_ok info -> 0 <= now < two64 ->
  let p := create_keepalive_packet_ext info now in
  blen p = 38 /\ firstn 10 p = create_keepalive_packet now /\
  extract_keepalive_timestamp p = Ok (Some now) /\
  extract_keepalive_conn_info p = Ok (Some info).
Proof.
  intros Hi Hn. destruct info as [|cid [|w [|inf [|rtt [|nak [|br [|? ?]]]]]]]; try contradiction.
  destruct Hi as (Hc & Hw & Hf & Hr & Hk & Hb).
  destruct (to_of_i32 w Hw) as [Hw1 Hw2]. destruct (to_of_i32 inf Hf) as [Hf1 Hf2].
  destruct type_const_range as (_ & _ & _ & _ & HK & HM & HV).
  cbn zeta. split; [reflexivity|]. split; [reflexivity|]. split.
  - exact (ka_ts_build now _ Hn).
  - unfold extract_keepalive_conn_info, create_keepalive_packet_ext.
    match goal with |- context [blen ?l <? SRTLA_KEEPALIVE_EXT_LEN] =>
      change (blen l <? SRTLA_KEEPALIVE_EXT_LEN) with false end.
    rewrite get_packet_type_spec, spec_type_be_bytes by exact HK. cbn [bind].
    match goal with |- context [be16_at ?l 10] => set (p := l) end.
    (* each field sits where the decoder looks for it: [skipn] computes on the ten segments *)
    rewrite (be16_at_field p 10 SRTLA_KEEPALIVE_MAGIC _ ltac:(lia) HM eq_refl).
    rewrite (be16_at_field p 12 SRTLA_KEEPALIVE_EXT_VERSION _ ltac:(lia) HV eq_refl).
    rewrite (be32_at_field p 14 cid _ ltac:(lia) Hc eq_refl).
    rewrite (be32_at_field p 18 (of_i32 w) _ ltac:(lia) Hw2 eq_refl).
    rewrite (be32_at_field p 22 (of_i32 inf) _ ltac:(lia) Hf2 eq_refl).
    rewrite (be32_at_field p 26 rtt _ ltac:(lia) Hr eq_refl).
    rewrite (be32_at_field p 30 nak _ ltac:(lia) Hk eq_refl).
    rewrite (be32_at_field p 34 br _ ltac:(lia) Hb eq_refl).
    cbn [bind]. rewrite !Z.eqb_refl, Hw1, Hf1. reflexivity.
Qed.
