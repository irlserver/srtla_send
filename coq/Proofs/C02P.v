(** C02P.v — in-flight = |log|, refinement of the packet log to the set
    specification, and the "exactly one link" structure of per-packet ACK / NAK. *)
From Srtla Require Import Base Constants Conn Run_Core BaseP ConnP CoreRunP Run_C02 SetP.
From Coq Require Import ZifyBool.

Definition keys (c : link) : list Z := map fst (log c).
Definition kset (c : link) : sset := sort_z (keys c).

Definition Inv2 (c : link) : Prop :=
  NoDup (keys c) /\ in_flight c = blen (log c) /\ Forall (fun k => hwm c < k) (keys c).

Lemma o_keys_obs c : o_keys (obs_link c) = kset c. Proof. reflexivity. Qed.
Lemma o_inflight_obs c : o_inflight (obs_link c) = in_flight c. Proof. reflexivity. Qed.
Lemma o_nakcount_obs c : o_nakcount (obs_link c) = nak_count (cg c). Proof. reflexivity. Qed.

Lemma blen_map {A B} (f : A -> B) l : blen (map f l) = blen l.
Proof. exact (BaseP.blen_map f l). Qed.

Lemma blen_kset c : blen (kset c) = blen (log c).
Proof. unfold blen, kset, keys. rewrite sort_z_length, map_length. reflexivity. Qed.
Lemma s_mem_kset seq c : s_mem seq (kset c) = log_mem seq (log c).
Proof. apply Bool.eq_true_iff_eq. unfold kset. rewrite s_mem_In, sort_z_In, log_mem_In. reflexivity. Qed.

Lemma keys_filter_inv c c' (f : Z -> bool) : NoDup (keys c) -> keys c' = filter f (keys c) ->
  in_flight c' = blen (log c') -> (forall k, In k (keys c) -> f k = true -> hwm c' < k) ->
  Inv2 c' /\ kset c' = filter f (kset c).
Proof.
  intros Hn Ek Ei Hh. split; [|unfold kset; rewrite Ek; apply sort_z_filter, Hn].
  split; [rewrite Ek; apply NoDup_filter, Hn|]. split; [exact Ei|].
  rewrite Ek, Forall_forall. intros k Hk. apply filter_In in Hk as [H1 H2]. auto.
Qed.

Lemma register_inv c seq t : i32_min < seq -> Inv2 c ->
  Inv2 (register_packet c seq t) /\ kset (register_packet c seq t) = s_add seq (kset c).
Proof.
  intros Hseq (Hn & Hi & Hh). rewrite Forall_forall in Hh.
  unfold Inv2, kset, keys, register_packet, log_insert. cbn [log in_flight hwm map fst].
  rewrite log_remove_keys. set (h := if seq <=? hwm c then _ else _).
  assert (Hm : h < seq /\ h <= hwm c) by (subst h; destruct (seq <=? hwm c) eqn:E; unfold i32_min, two31 in *; lia).
  repeat split.
  - constructor; [rewrite filter_In, Z.eqb_refl; intros [_ H]; discriminate|apply NoDup_filter, Hn].
  - constructor; [apply Hm|]. rewrite Forall_forall. intros x Hx. apply filter_In in Hx as [Hx _].
    specialize (Hh x Hx). lia.
  - change (sort_z (seq :: ?l)) with (insert_sorted seq (sort_z l)). rewrite sort_z_filter by exact Hn.
    exact (s_add_del seq _ (sort_z_sorted _ Hn)).
Qed.

(** early return, targeted removal and [retain] all keep exactly the entries above the ACK *)
Lemma srt_ack_log c a : (forall k, In k (keys c) -> hwm c < k) ->
  log (handle_srt_ack c a) = filter (fun p => a <? fst p) (log c).
Proof.
  intros Hh. assert (Hp : forall p, In p (log c) -> hwm c < fst p) by (intros p Hp; apply Hh, in_map, Hp).
  unfold handle_srt_ack. destruct (a <=? hwm c) eqn:E; cbn [log].
  - symmetry. apply filter_all. intros p Hin. specialize (Hp p Hin). lia.
  - destruct (_ && _); [|reflexivity]. apply filter_ext_in. intros p Hin. specialize (Hp p Hin). lia.
Qed.

Lemma srt_ack_inv c a : Inv2 c ->
  Inv2 (handle_srt_ack c a) /\ kset (handle_srt_ack c a) = filter (fun s => a <? s) (kset c).
Proof.
  intros HI. pose proof HI as (_ & Hi & Hh). rewrite Forall_forall in Hh. apply keys_filter_inv; [apply HI| | |].
  - unfold keys. rewrite (srt_ack_log c a Hh). apply (filter_fst_keys (fun s => a <? s)).
  - unfold handle_srt_ack. destruct (a <=? hwm c); [exact Hi|reflexivity].
  - intros k Hk Hf. specialize (Hh k Hk). unfold handle_srt_ack. destruct (a <=? hwm c); cbn [hwm]; lia.
Qed.

Lemma remove_inv c c' seq : Inv2 c -> log c' = log_remove seq (log c) -> in_flight c' = blen (log c') ->
  hwm c' = hwm c -> Inv2 c' /\ kset c' = s_del seq (kset c).
Proof.
  intros HI El Ei Eh. apply (keys_filter_inv c c' (fun x => negb (x =? seq))); [apply HI| |exact Ei|].
  - unfold keys. rewrite El. apply log_remove_keys.
  - intros k Hk _. rewrite Eh. destruct HI as (_ & _ & Hh). rewrite Forall_forall in Hh. auto.
Qed.

Lemma specific_inv c seq cl now : Inv2 c ->
  Inv2 (fst (handle_srtla_ack_specific c seq cl now)) /\
  kset (fst (handle_srtla_ack_specific c seq cl now)) = s_del seq (kset c).
Proof.
  intros HI. unfold handle_srtla_ack_specific. destruct (log_mem seq (log c)) eqn:Hm; cbn zeta.
  - destruct (if cl then _ else _) as [[g w] o]. apply remove_inv; [exact HI|reflexivity..].
  - apply remove_inv; [exact HI|symmetry; apply log_remove_absent, Hm|apply HI|reflexivity].
Qed.
Lemma nak_inv c seq now : Inv2 c ->
  Inv2 (fst (handle_nak c seq now)) /\ kset (fst (handle_nak c seq now)) = s_del seq (kset c).
Proof.
  intros HI. unfold handle_nak. destruct (log_mem seq (log c)) eqn:Hm; cbn zeta.
  - destruct (cong_nak _ _ _) as [[g w] o]. apply remove_inv; [exact HI|reflexivity..].
  - apply remove_inv; [exact HI|symmetry; apply log_remove_absent, Hm|apply HI|reflexivity].
Qed.

Definition same_log (c c' : link) : Prop := log c' = log c /\ in_flight c' = in_flight c /\ hwm c' = hwm c.
Lemma same_log_inv c c' : same_log c c' -> Inv2 c -> Inv2 c' /\ kset c' = kset c.
Proof. intros (El & Ei & Eh) (Hn & Hi & Hh). unfold Inv2, kset, keys. rewrite El, Ei, Eh. auto. Qed.
Lemma global_same c : same_log c (handle_srtla_ack_global c).
Proof. unfold handle_srtla_ack_global. destruct (_ && _); repeat split. Qed.

Lemma empty_inv c' : log c' = [] -> in_flight c' = 0 -> Inv2 c' /\ kset c' = [].
Proof. intros El Ei. unfold Inv2, kset, keys. rewrite El, Ei. cbn. repeat split; constructor. Qed.

Definition SInv2 (s : state) : Prop := Forall Inv2 (links s).
Definition wf2 (o : op) : Prop := match o with ORegister _ seq _ => i32_min < seq | _ => True end.
Definition obsl (l : list link) : obs := map obs_link l.

Lemma length_obsl l : length (obsl l) = length l. Proof. apply map_length. Qed.
Lemma length_upd {A} (f : A -> A) l : forall i, length (upd i f l) = length l.
Proof. exact (upd_length f l). Qed.

Lemma forall_idx_F2i (f : nat -> lobs -> lobs -> bool) i l l' :
  Forall2i (fun k c c' => f k (obs_link c) (obs_link c') = true) i l l' ->
  forall_idx f i (obsl l) (obsl l') = true.
Proof. intros H. exact (forall_idx_map _ obs_link f i l l' H (fun _ _ _ E => E)). Qed.

Lemma keys_at_nth l i c : nth_error l i = Some c -> keys_at i (obsl l) = kset c.
Proof. intros H. unfold keys_at, obsl. rewrite (nth_map_some _ _ _ _ _ H). reflexivity. Qed.

Lemma existsb_seq_witness (f : nat -> bool) n j : (j < n)%nat -> f j = true -> existsb f (List.seq 0 n) = true.
Proof. intros H1 H2. apply existsb_exists. exists j. split; [apply in_seq; lia|exact H2]. Qed.

(** Every clause of [allowed] is read off a [Forall2i (moved g k)] between the two link lists. *)
Definition moved (g : sset -> sset) (k j : nat) (c c' : link) : Prop :=
  Inv2 c' /\ kset c' = if Nat.eqb j k then g (kset c) else kset c.

Lemma moved_upd g k f l : Forall Inv2 l -> (forall c, Inv2 c -> Inv2 (f c) /\ kset (f c) = g (kset c)) ->
  Forall2i (moved g k) 0 l (upd k f l).
Proof.
  intros HI Hf. apply (Forall2i_Forall_l _ _ _ _ _ HI). eapply Forall2i_impl; [|apply (upd_rel f l k 0)]. cbn.
  intros j c c' [[-> ->]|[Hne ->]] Hc; unfold moved.
  - rewrite Nat.eqb_refl. exact (Hf c Hc).
  - replace (Nat.eqb j k) with false by lia. auto.
Qed.

Lemma moved_refl k l : Forall Inv2 l -> Forall2i (moved (fun s => s) k) 0 l l.
Proof.
  intros HI. apply (Forall2i_Forall_l _ _ _ _ _ HI), Forall2i_refl. intros j c Hc.
  split; [exact Hc|destruct (Nat.eqb j k); reflexivity].
Qed.

Lemma moved_global {g k i l l'} :
  Forall2i (moved g k) i l l' -> Forall2i (moved g k) i l (map handle_srtla_ack_global l').
Proof.
  apply Forall2i_map_r. intros j x y [HI E].
  destruct (same_log_inv y _ (global_same y) HI) as [HI' E']. split; [exact HI'|rewrite E'; exact E].
Qed.
Lemma obsl_map_global l : Forall2i (fun _ c c' => kset c' = kset c) 0 l (map handle_srtla_ack_global l).
Proof.
  eapply Forall2i_impl; [|apply Forall2i_map].
  intros _ c y ->. unfold kset, keys. destruct (global_same c) as (-> & _). reflexivity.
Qed.

Lemma moved_inv {g k i l l'} : Forall2i (moved g k) i l l' -> Forall Inv2 l'.
Proof. intros H. apply (Forall2i_Forall_r _ _ _ _ _ H). intros ? ? ? [Hi _]. exact Hi. Qed.

Lemma moved_others {g k l l'} : Forall2i (moved g k) 0 l l' -> others_same k (obsl l) (obsl l') = true.
Proof.
  intros H. apply forall_idx_F2i. eapply Forall2i_impl; [|exact H]. cbn beta. intros j c c' [_ E].
  rewrite !o_keys_obs, E. destruct (Nat.eqb j k); [reflexivity|apply zlist_eqb_refl].
Qed.

Lemma moved_at {g k l l' c} : Forall2i (moved g k) 0 l l' -> nth_error l k = Some c ->
  keys_at k (obsl l) = kset c /\ keys_at k (obsl l') = g (kset c).
Proof.
  intros H Hn. destruct (Forall2i_nth _ _ _ _ H k c Hn) as (c' & Hn' & _ & E). cbn in E.
  rewrite Nat.eqb_refl in E. rewrite (keys_at_nth _ _ _ Hn), (keys_at_nth _ _ _ Hn'). auto.
Qed.

Lemma moved_id_all_same {k i l l'} :
  Forall2i (moved (fun s => s) k) i l l' -> all_same (obsl l) (obsl l') = true.
Proof.
  unfold all_same, obsl. induction 1 as [|j c c' l l' [_ E] _ IH]; cbn [map forall2b]; [reflexivity|].
  rewrite !o_keys_obs, E, IH. destruct (Nat.eqb j k); rewrite zlist_eqb_refl; reflexivity.
Qed.

Lemma moved_retired {seq k l l' c} : Forall2i (moved (s_del seq) k) 0 l l' ->
  nth_error l k = Some c -> log_mem seq (log c) = true ->
  s_mem seq (keys_at k (obsl l)) = true /\ others_same k (obsl l) (obsl l') = true /\
  zlist_eqb (keys_at k (obsl l')) (s_del seq (keys_at k (obsl l))) = true.
Proof.
  intros H Hn Hm. destruct (moved_at H Hn) as [-> ->].
  rewrite s_mem_kset, zlist_eqb_refl. repeat split; [exact Hm|exact (moved_others H)].
Qed.

Lemma on_moved g i f l : (forall c, Inv2 c -> Inv2 (f c) /\ kset (f c) = g (kset c)) -> Forall Inv2 l ->
  Forall Inv2 (upd i f l) /\
  others_same i (obsl l) (obsl (upd i f l)) &&
  (if (i <? length (obsl l))%nat then zlist_eqb (keys_at i (obsl (upd i f l))) (g (keys_at i (obsl l))) else true) = true.
Proof.
  intros Hf HI. pose proof (moved_upd g i f l HI Hf) as M.
  split; [exact (moved_inv M)|]. rewrite (moved_others M), length_obsl. cbn [andb]. destruct (nth_error l i) as [c|] eqn:Hn.
  - destruct (moved_at M Hn) as [-> ->]. rewrite zlist_eqb_refl. destruct (_ <? _)%nat; reflexivity.
  - apply nth_error_None in Hn. replace (i <? length l)%nat with false by lia. reflexivity.
Qed.
Lemma on_same i f l : (forall c, same_log c (f c)) -> Forall Inv2 l ->
  Forall Inv2 (upd i f l) /\ all_same (obsl l) (obsl (upd i f l)) = true.
Proof.
  intros Hf HI. pose proof (moved_upd (fun s => s) i f l HI (fun c => same_log_inv c _ (Hf c))) as M.
  split; [exact (moved_inv M)|exact (moved_id_all_same M)].
Qed.

Lemma srt_ack_all a l : Forall Inv2 l ->
  Forall Inv2 (map (fun c => handle_srt_ack c a) l) /\
  forall2b (fun x y => zlist_eqb (o_keys y) (filter (fun s => a <? s) (o_keys x)))
           (obsl l) (obsl (map (fun c => handle_srt_ack c a) l)) = true.
Proof.
  unfold obsl. induction 1 as [|c l Hc _ [IH1 IH2]]; cbn [map forall2b]; [split; [constructor|reflexivity]|].
  destruct (srt_ack_inv c a Hc) as [H1 H2]. split; [constructor; assumption|].
  rewrite !o_keys_obs, H2, zlist_eqb_refl. exact IH2.
Qed.

Lemma no_other_holder seq idx l : (forall c, In c l -> log_mem seq (log c) = false) ->
  any_other_holder seq idx (obsl l) = false.
Proof.
  unfold any_other_holder, obsl. generalize 0%nat.
  induction l as [|x l IH]; intros j H; cbn [map other_holder_from]; [reflexivity|].
  rewrite IH by (intros c Hc; apply H; right; exact Hc).
  rewrite o_keys_obs, s_mem_kset, (H x (or_introl eq_refl)), andb_false_r. reflexivity.
Qed.

Theorem step_c02 s o : wf2 o -> SInv2 s ->
  SInv2 (step s o) /\ allowed o (obs_state s) (obs_state (step s o)) = true.
Proof.
  intros Hwf HI. unfold SInv2, obs_state in *. fold (obsl (links s)). fold (obsl (links (step s o))).
  pose proof (moved_refl 0 _ HI) as Mid. pose proof (moved_id_all_same Mid) as Hid.
  destruct o; cbn [step allowed links on].
  - apply (on_moved (s_add seq)), HI. intros c. apply register_inv, Hwf.
  - (* OTrack *) destruct (nth_error _ _); cbn [links]; split; assumption.
  - apply srt_ack_all, HI.
  - (* OSrtlaAck *)
    rewrite length_obsl. destruct (nth_error (links s) idx) as [c|] eqn:En.
    2:{ unfold srtla_ack_event. rewrite En. apply nth_error_None in En.
        replace (idx <? length (links s))%nat with false by lia. split; assumption. }
    assert (Hlt : (idx < length (links s))%nat) by (apply nth_error_Some; congruence).
    replace (idx <? length (links s))%nat with true by lia.
    rewrite (keys_at_nth _ _ _ En) at 1. rewrite s_mem_kset.
    destruct (srtla_ack_event_cases _ _ seq classic now _ En)
      as (l1 & -> & [[-> Hno]|(k & c0 & Hn & Hm & -> & Hk)]).
    + (* no link holds the number *)
      apply moved_global in Mid. split; [exact (moved_inv Mid)|].
      rewrite (Hno _ (nth_error_In _ _ En)), (moved_id_all_same Mid), no_other_holder by exact Hno.
      reflexivity.
    + (* link k holds it: the arrival link if that one does *)
      pose proof (moved_global (moved_upd (s_del seq) k _ _ HI (fun x => specific_inv x seq classic now))) as M.
      split; [exact (moved_inv M)|].
      destruct (moved_retired M Hn Hm) as (R1 & R2 & R3).
      destruct (log_mem seq (log c)) eqn:Em.
      * specialize (Hk eq_refl). subst k. rewrite R2, R3. reflexivity.
      * apply orb_true_iff. right. apply (existsb_seq_witness _ _ k); [apply nth_error_Some; congruence|].
        rewrite R1, R2, R3. replace (Nat.eqb k idx) with false; [reflexivity|].
        symmetry. apply Nat.eqb_neq. intros ->. congruence.
  - (* ONak *)
    rewrite length_obsl.
    destruct (attribute_nak_cases (links s) (trk s) seq now) as [->|(k & c & Hn & Hm & -> & _)].
    + split; [exact HI|]. rewrite Hid. reflexivity.
    + pose proof (moved_upd (s_del seq) k _ _ HI (fun x => nak_inv x seq now)) as M.
      split; [exact (moved_inv M)|]. apply orb_true_iff. right.
      apply (existsb_seq_witness _ _ k); [apply nth_error_Some; congruence|].
      destruct (moved_retired M Hn Hm) as (-> & -> & ->). reflexivity.
  - apply on_same, HI. intros c. unfold perform_window_recovery.
    destruct (recovery _ _ _ _ _) as [[? ?] ?]. repeat split.
  - apply on_same, HI. intros c. unfold cc_ack.
    destruct (if classic then _ else _) as [[? ?] ?]. repeat split.
  - apply on_same, HI. intros c. unfold cc_nak.
    destruct (cong_nak _ _ _) as [[? ?] ?]. repeat split.
  - apply on_same, HI. exact global_same.
  - (* OMarkRecovery *) apply (on_moved (fun _ => [])), HI. intros c _. apply empty_inv; reflexivity.
  - (* OResetReconnect *) apply (on_moved (fun _ => [])), HI. intros c _. apply empty_inv; reflexivity.
  - (* OReg3 *) apply (on_moved (fun _ => [])), HI. intros c _. apply empty_inv; reflexivity.
  - (* OSetConn *) apply on_same, HI. repeat split.
  - (* OSetWindow *) apply on_same, HI. repeat split.
  - (* ORemoveConn *) destruct (nth_error _ _); cbn [links]; split; assumption.
Qed.

Lemma init_inv2 ids : SInv2 (init ids).
Proof.
  unfold SInv2, init. cbn. apply Forall_map, Forall_forall. intros id _. apply empty_inv; reflexivity.
Qed.

Theorem reachable_inv2 ids ops : Forall wf2 ops -> SInv2 (run_from (init ids) ops).
Proof. intros H. apply (run_inv SInv2 wf2); [apply step_c02|exact H|apply init_inv2]. Qed.

Lemma inflight_ok l : Forall Inv2 l ->
  forallb (fun x => o_inflight x =? blen (o_keys x)) (obsl l) = true /\
  forallb (fun x => 0 <=? o_inflight x) (obsl l) = true.
Proof.
  unfold obsl. induction 1 as [|c l (Hn & Hi & Hh) Hl [IH1 IH2]]; cbn [map forallb]; [split; reflexivity|].
  rewrite IH1, IH2, o_inflight_obs, o_keys_obs, blen_kset, Hi, Z.eqb_refl.
  pose proof (blen_nonneg (log c)). replace (0 <=? blen (log c)) with true by lia. split; reflexivity.
Qed.

Theorem monitor_holds2 ids ops : Forall wf2 ops -> check_with mon_C02 (model_case ids ops) = 0%N.
Proof.
  intros Hwf. apply (check_with_model mon_C02 (fun _ s => SInv2 s)).
  - cbn [mon_C02 m_init snd]. rewrite forallb_obs_init; reflexivity.
  - apply init_inv2.
  - intros m s o HJ Hin. cbn [mon_C02 m_step fst snd].
    assert (Ho : wf2 o) by (rewrite Forall_forall in Hwf; auto).
    destruct (step_c02 s o Ho HJ) as [H1 H2]. split; [|exact H1].
    rewrite obs_length_step, Nat.eqb_refl, H2. cbn [negb]. unfold obs_state.
    destruct (inflight_ok _ H1) as [A B]. unfold obsl in A, B. rewrite A, B. reflexivity.
Qed.
