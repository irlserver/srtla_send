(** C08LiveP.v — step-level corollaries (index form), penalty non-interference and the
    bounded-liveness lemma for C08. *)
From Coq Require Import ZifyBool.
From Srtla Require Import Base Constants ConnP ReconnectP ReconStepP Run_C08 C08P.
Local Open Scope Z_scope.

Lemma step_links_length : forall s o, length (links (fst (step s o))) = length (links s).
Proof. intros. symmetry. exact (Forall2i_length _ _ _ _ (step_rel s o)). Qed.

(** Routing penalties are never read by the liveness plane.
    [core]: everything about a link except its penalties and the Live/Degraded split
    (the only thing a penalty — loss_degraded — can move). *)
Definition ph_reg (p : phase) : phase := match p with PDeg => PLive | x => x end.
Definition core (l : link) :=
  (l_conn l, l_lr l, l_to l, l_rc l, ph_reg (l_ph l), l_win l, l_inf l, (l_gen l, l_io l, l_bind l, l_sock l)).

Lemma tick_link_pen : forall i l p g now classic dg w,
  let '(l1, g1, w1) := tick_link i (set_pen l p) g now classic dg w in
  let '(l2, g2, w2) := tick_link i l g now classic dg w in
  l_conn l1 = l_conn l2 /\ l_lr l1 = l_lr l2 /\ l_to l1 = l_to l2 /\ l_rc l1 = l_rc l2 /\ l_win l1 = l_win l2 /\
  l_inf l1 = l_inf l2 /\ l_gen l1 = l_gen l2 /\ l_sock l1 = l_sock l2 /\
  (l_ph l1 = PReg <-> l_ph l2 = PReg) /\ g1 = g2 /\ w1 = w2.
Proof.
  intros i l p g now classic dg w. unfold tick_link.
  change (is_timed_out (set_pen l p) now) with (is_timed_out l now).
  change (l_rc (set_pen l p)) with (l_rc l).
  destruct (is_timed_out l now).
  - (* the retry branch reads the environment flags and the manager only *)
    destruct (should_attempt (l_rc l) now); [|cbn; repeat split; auto].
    cbn [set_rc set_pen l_io l_bind].
    destruct (l_io l && l_bind l); destruct (g_pend g) as [idx|];
      [destruct (Nat.eqb idx i)| |destruct (Nat.eqb idx i)|]; cbn; repeat split; auto.
  - (* the alive branch: the loss flag enters [update_phase] alone *)
    cbn [set_pen l_conn]. destruct (negb classic && l_conn l); cbn -[update_phase]; repeat split; auto;
      intros H; apply update_phase_reg; apply update_phase_reg in H; exact H.
Qed.

(** a dead, previously established link with no failed re-creation on record, whose socket can
    be re-created *)
Definition dead (l : link) : Prop :=
  l_conn l = false /\ l_lr l = None /\ r_est (l_rc l) <> 0 /\ r_fail (l_rc l) = 0 /\
  l_io l = true /\ l_bind l = true.

Lemma dead_timed_out : forall l now, dead l -> is_timed_out l now = true.
Proof. intros l now [C [L [E _]]]. apply dead_link_timed_out; try assumption. intros Z; contradiction. Qed.

Lemma tick_dead_due : forall i l g now classic dg w, dead l -> g_pend g = None ->
  5000 <= now - r_last (l_rc l) ->
  tick_link i l g now classic dg w =
  (reconnected (set_rc l (record_attempt (l_rc l) now)) now, g, [W_REG2]).
Proof.
  intros i l g now classic dg w D P Hd. unfold tick_link. rewrite (dead_timed_out l now D).
  destruct D as [C [L [E [F [IO B]]]]].
  rewrite (should_attempt_due_base (l_rc l) now F E Hd). rewrite P.
  cbn [set_rc l_io l_bind]. rewrite IO, B. cbn [andb]. unfold emit, can_send. cbn. rewrite IO. reflexivity.
Qed.

Lemma tick_dead_early : forall i l g now classic dg w, dead l ->
  r_last (l_rc l) <> 0 -> now - r_last (l_rc l) < 5000 ->
  tick_link i l g now classic dg w = (l, g, []).
Proof.
  intros i l g now classic dg w D N Hd. unfold tick_link. rewrite (dead_timed_out l now D).
  destruct D as [C [L [E [F _]]]].
  assert (SA : should_attempt (l_rc l) now = false).
  { unfold should_attempt. assert (r_est (l_rc l) =? 0 = false) as -> by lia.
    assert (r_last (l_rc l) =? 0 = false) as -> by lia.
    rewrite (backoff_base (l_rc l) F). unfold ssub. lia. }
  rewrite SA. reflexivity.
Qed.

Fixpoint run_ticks (i : nat) (l : link) (g : reg) (ts : list Z) : list (Z * link * list Z) :=
  match ts with
  | [] => []
  | t :: r => let '(l', g', w) := tick_link i l g t false 0 0 in (t, l', w) :: run_ticks i l' g' r
  end.

Fixpoint spaced (prev D : Z) (ts : list Z) : Prop :=
  match ts with [] => True | t :: r => prev <= t <= prev + D /\ spaced t D r end.

Lemma first_due_tick : forall ts i l g T D prev,
  dead l -> g_pend g = None -> r_last (l_rc l) <> 0 -> r_last (l_rc l) <= T ->
  prev <= T + 5000 -> spaced prev D ts -> (exists t, In t ts /\ T + 5000 <= t) ->
  exists t l', In (t, l', [W_REG2]) (run_ticks i l g ts) /\ t <= T + 5000 + D /\
               l_gen l' = l_gen l + 1 /\ l_conn l' = false /\ r_last (l_rc l') = t.
Proof.
  induction ts as [|t r IH]; intros i l g T D prev HD HP HN HT Hprev HS [t1 [HIn Ht1]]; [contradiction|].
  cbn [spaced] in HS. destruct HS as [[S1 S2] S3]. cbn [run_ticks].
  destruct (Z_lt_ge_dec (t - r_last (l_rc l)) 5000) as [Early|Due].
  - rewrite (tick_dead_early i l g t false 0 0 HD HN Early).
    destruct HIn as [->|HIn]; [lia|].
    destruct (IH i l g T D t HD HP HN HT ltac:(lia) S3 (ex_intro _ t1 (conj HIn Ht1))) as [t2 [l2 [A [B C]]]].
    exists t2, l2. split; [right; exact A|]. split; assumption.
  - rewrite (tick_dead_due i l g t false 0 0 HD HP ltac:(lia)).
    exists t, (reconnected (set_rc l (record_attempt (l_rc l) t)) t). split; [left; reflexivity|].
    split; [lia|]. cbn. repeat split; lia.
Qed.

Lemma init_inv : forall n t0, Inv (init n t0).
Proof.
  intros n t0. split; [reflexivity|]. cbn [links init]. apply Forall_forall. intros l HIn.
  apply repeat_spec in HIn. subst. unfold LInv, link0. cbn. repeat split; try lia; discriminate.
Qed.

Lemma final_inv : forall ops s t, 0 < t -> wf_from t ops = true -> Inv s -> Inv (final s ops).
Proof.
  induction ops as [|o r IH]; intros s t Ht Hw HI; [exact HI|].
  destruct (wf_from_pos t o r Ht Hw) as [Hp [t' [Ht' Hw']]].
  cbn [final]. apply (IH _ t' Ht' Hw'). apply step_inv; assumption.
Qed.

Lemma init_sync : forall n t0, Sync (ms0 n t0) (init n t0).
Proof.
  intros n t0. split; [|split; reflexivity]. cbn [ms_links ms0 links init].
  induction n; cbn; constructor; [|assumption].
  unfold SyncL, ml0, link0. cbn. repeat split; try discriminate.
Qed.
