(** Which fields the scoring loop and the oracle read; the monitor's gated view. *)
From Coq Require Import ZArith List Bool Lia Floats.
From Srtla Require Import Base Select Run_Sel Run_C11 SelectP.
Import ListNotations.
Local Open Scope Z_scope.

(** what the selector loop and the oracle read: externally driven fields, timeout, gate flag, cache *)
Definition sel_view (c : link) : link :=
  set_hid c (Hd (l_timeout c) (l_gated c) false 0 0 0 0 (l_qmult c) (l_qlast c)).

Lemma spec_over_cap_view c : spec_over_cap c = spec_over_cap (sel_view c).
Proof. reflexivity. Qed.

Lemma spec_scores_view au q now : forall l1 l2 exps,
  Forall2 (fun a b => sel_view a = sel_view b) l1 l2 ->
  spec_scores au q now l1 exps = spec_scores au q now l2 exps.
Proof.
  intros l1 l2 exps H. revert exps. induction H as [|a b l l' E H IH]; intros exps; [reflexivity|].
  cbn [spec_scores].
  now rewrite (reads_eq sel_view (spec_candidate au now) a b (fun _ => eq_refl) E),
              (reads_eq sel_view (spec_score au q now (hd 1%float exps)) a b (fun _ => eq_refl) E), IH.
Qed.

(** the monitor's gated view of the pre-state agrees with the gate's output on everything the
    loop reads: the gate leaves the cache alone, the loop everything else, and timeout and gate
    flag are taken from the post-state *)
Lemma gv_elem c c1 c' :
  cv c1 = cv c -> nc c1 = nc c' ->
  sel_view (set_hid c (h_set_timeout (h_timeout (hid_of c')) (h_set_gated (h_gated (hid_of c')) (hid_of c)))) = sel_view c1.
Proof.
  intros E1 E2. apply set_hid_ext; [exact (eq_sym (f_equal pv E1))|].
  cbn [set_hid hid_of h_set_timeout h_set_gated h_timeout h_gated l_timeout l_gated l_qmult l_qlast].
  now rewrite <- (f_equal l_timeout E2 : l_timeout c1 = l_timeout c'), <- (f_equal l_gated E2 : l_gated c1 = l_gated c'),
              (f_equal l_qmult E1 : l_qmult c1 = l_qmult c), (f_equal l_qlast E1 : l_qlast c1 = l_qlast c).
Qed.

Lemma gated_view_sel cfg s ls1 s' :
  Forall2 (gate_rel cfg) s ls1 -> Forall2 (fun c1 c' => nc c1 = nc c') ls1 s' ->
  Forall2 (fun a b => sel_view a = sel_view b) (gated_view s (map hid_of s')) ls1.
Proof.
  unfold gated_view. intros H1. revert s'. induction H1 as [|c c1 l l1 (E1 & _) H1 IH]; intros s' H2.
  - inversion H2; subst. constructor.
  - inversion H2 as [|x c' y l' E2 H2']; subst. cbn [map combine set_hids]. constructor; [|now apply IH].
    now apply gv_elem.
Qed.
