(** ConnP.v — list facts the proofs over Model/Conn.v share (the indexed [Forall2i], update at an
    index [upd], packet logs), and the structure of the model: every op relates each link of the
    pre-state to the link at the same index of the post-state by one of a small set of per-link
    transitions; a per-packet ACK or NAK rewrites at most one link, which holds the number. *)
From Srtla Require Import Base Constants Conn BaseP.
From Coq Require Import ZifyBool.

Inductive Forall2i {A B} (R : nat -> A -> B -> Prop) : nat -> list A -> list B -> Prop :=
| F2i_nil i : Forall2i R i [] []
| F2i_cons i x y l l' : R i x y -> Forall2i R (S i) l l' -> Forall2i R i (x :: l) (y :: l').

Lemma Forall2i_impl {A B} (R R' : nat -> A -> B -> Prop) i l l' :
  (forall k x y, R k x y -> R' k x y) -> Forall2i R i l l' -> Forall2i R' i l l'.
Proof. intros H F. induction F; constructor; auto. Qed.

Lemma Forall2i_length {A B} (R : nat -> A -> B -> Prop) i l l' : Forall2i R i l l' -> length l = length l'.
Proof. induction 1; cbn; congruence. Qed.

Lemma Forall2i_refl_from {A} (R : nat -> A -> A -> Prop) l : forall i,
  (forall k x, (i <= k)%nat -> R k x x) -> Forall2i R i l l.
Proof.
  induction l as [|x l IH]; intros i H; constructor; [apply H; lia|].
  apply IH. intros k y Hk. apply H; lia.
Qed.
Lemma Forall2i_refl {A} (R : nat -> A -> A -> Prop) i l : (forall k x, R k x x) -> Forall2i R i l l.
Proof. intros H. apply Forall2i_refl_from. auto. Qed.

Lemma Forall2i_map_r {A B C} (R : nat -> A -> B -> Prop) (R' : nat -> A -> C -> Prop) (g : B -> C) i l l' :
  (forall k x y, R k x y -> R' k x (g y)) -> Forall2i R i l l' -> Forall2i R' i l (map g l').
Proof. intros H. induction 1; cbn; constructor; auto. Qed.

Lemma Forall2i_Forall_l {A B} (P : A -> Prop) (R : nat -> A -> B -> Prop) i l l' :
  Forall P l -> Forall2i (fun j x y => P x -> R j x y) i l l' -> Forall2i R i l l'.
Proof. intros HP H. induction H; inversion HP; subst; constructor; auto. Qed.
Lemma Forall2i_Forall_r {A B} (Q : B -> Prop) (R : nat -> A -> B -> Prop) i l l' :
  Forall2i R i l l' -> (forall k x y, R k x y -> Q y) -> Forall Q l'.
Proof. intros H HQ. induction H; constructor; eauto. Qed.

Lemma Forall2i_map_eq {A B C} (R : nat -> A -> B -> Prop) (f : A -> C) (g : B -> C) i l l' :
  Forall2i R i l l' -> (forall j a b, R j a b -> f a = g b) -> map f l = map g l'.
Proof. intros H HR. induction H; cbn; [reflexivity|]. f_equal; eauto. Qed.

Lemma Forall2i_nth {A B} (R : nat -> A -> B -> Prop) : forall l l' i, Forall2i R i l l' ->
  forall j x, nth_error l j = Some x -> exists y, nth_error l' j = Some y /\ R (i + j)%nat x y.
Proof.
  induction 1 as [|i a b l l' Hab _ IH]; intros [|j] z Hz; cbn in Hz; try discriminate.
  - inversion Hz; subst. exists b. rewrite Nat.add_0_r. auto.
  - rewrite Nat.add_succ_r. exact (IH j z Hz).
Qed.

Lemma Forall2i_Forall2 {A B} (R : A -> B -> Prop) i l l' : Forall2i (fun _ => R) i l l' -> Forall2 R l l'.
Proof. induction 1; constructor; auto. Qed.

Lemma Forall2i_map {A B} (f : A -> B) i l : Forall2i (fun _ x y => y = f x) i l (map f l).
Proof.
  apply Forall2i_map_r with (R := fun _ x y => y = x); [intros k x y ->; reflexivity|].
  apply Forall2i_refl. reflexivity.
Qed.

Lemma Forall2i_comp {A B C} (P : nat -> A -> B -> Prop) (Q : nat -> B -> C -> Prop) i la lb lc :
  Forall2i P i la lb -> Forall2i Q i lb lc -> Forall2i (fun k a c => exists b, P k a b /\ Q k b c) i la lc.
Proof. intros F. revert lc. induction F; intros lc G; inversion G; subst; constructor; eauto. Qed.

Lemma Forall2i_Forall2_comp {A B C} (R : nat -> A -> B -> Prop) (Q : B -> C -> Prop) i l l1 l2 :
  Forall2i R i l l1 -> Forall2 Q l1 l2 -> Forall2i (fun j a c => exists b, R j a b /\ Q b c) i l l2.
Proof. intros H. revert l2. induction H; intros l2 H2; inversion H2; subst; constructor; eauto. Qed.

Lemma upd_length {A} (f : A -> A) : forall l i, length (upd i f l) = length l.
Proof. induction l; intros [|i]; cbn; auto. Qed.

Lemma nth_error_upd_if {A} (f : A -> A) : forall l i j,
  nth_error (upd i f l) j = if Nat.eqb i j then option_map f (nth_error l j) else nth_error l j.
Proof.
  induction l as [|x l IH]; intros i j.
  - destruct i, j; cbn; try reflexivity; destruct (Nat.eqb _ _); reflexivity.
  - destruct i, j; cbn; try reflexivity. apply IH.
Qed.

Lemma nth_error_upd {A} (f : A -> A) l i c : nth_error l i = Some c -> nth_error (upd i f l) i = Some (f c).
Proof. intros H. rewrite nth_error_upd_if, Nat.eqb_refl, H. reflexivity. Qed.

Lemma nth_error_upd_other {A} (f : A -> A) l i j : i <> j -> nth_error (upd i f l) j = nth_error l j.
Proof. intros H. rewrite nth_error_upd_if, (proj2 (Nat.eqb_neq i j) H). reflexivity. Qed.

Lemma upd_ge {A} (f : A -> A) : forall l i, (i <? length l)%nat = false -> upd i f l = l.
Proof.
  induction l as [|a t IH]; intros [|i] H; cbn in *; try reflexivity; [discriminate|].
  f_equal. exact (IH i H).
Qed.

Lemma map_upd {A B} (g : A -> B) (f : A -> A) : (forall x, g (f x) = g x) -> forall l i, map g (upd i f l) = map g l.
Proof. intros H. induction l as [|y l IH]; intros [|i]; cbn; try reflexivity; [rewrite H|rewrite IH]; reflexivity. Qed.

Lemma upd_same {A} (c : A) : forall l i, nth_error l i = Some c -> upd i (fun _ => c) l = l.
Proof.
  induction l as [|y l IH]; intros [|i] H; cbn in *; try discriminate.
  - inversion H; reflexivity.
  - f_equal. auto.
Qed.

Lemma upd_const {A} (f : A -> A) : forall l i c, nth_error l i = Some c -> upd i (fun _ => f c) l = upd i f l.
Proof.
  induction l as [|y l IH]; intros [|i] c H; cbn in *; try discriminate.
  - inversion H; reflexivity.
  - f_equal. auto.
Qed.

Lemma Forall_upd {A} (P : A -> Prop) (f : A -> A) : forall l i,
  Forall P l -> (forall x, P x -> P (f x)) -> Forall P (upd i f l).
Proof.
  induction l as [|x l IH]; intros i H Hf; [destruct i; constructor|].
  inversion H; subst. destruct i; cbn; constructor; auto.
Qed.

Lemma Forall2_upd {A} (R : A -> A -> Prop) (f : A -> A) : forall l i,
  (forall x, R x x) -> (forall x, nth_error l i = Some x -> R x (f x)) -> Forall2 R l (upd i f l).
Proof.
  induction l as [|x l IH]; intros i Hr Hf; [destruct i; constructor|].
  destruct i; cbn [upd]; constructor.
  - apply Hf. reflexivity.
  - apply Forall2_reflexive, Hr.
  - apply Hr.
  - apply IH; [exact Hr|]. intros y Hy. apply Hf. exact Hy.
Qed.

Lemma upd_rel {A} (f : A -> A) : forall l i j,
  Forall2i (fun k c c' => (k = (j + i)%nat /\ c' = f c) \/ (k <> (j + i)%nat /\ c' = c)) j l (upd i f l).
Proof.
  induction l as [|x l IH]; intros i j; cbn; [destruct i; constructor|].
  destruct i as [|i]; cbn; constructor.
  - left; split; [lia|reflexivity].
  - apply Forall2i_refl_from. intros; right; split; [lia|reflexivity].
  - right; split; [lia|reflexivity].
  - rewrite Nat.add_succ_r. apply (IH i (S j)).
Qed.

Lemma find_pos_nth id : forall l i j, find_pos id l i = Some j ->
  (i <= j)%nat /\ exists c, nth_error l (j - i) = Some c /\ cid c = id.
Proof.
  induction l as [|c l IH]; intros i j H; cbn in H; [discriminate|].
  destruct (cid c =? id) eqn:E.
  - inversion H; subst. split; [lia|]. exists c. rewrite Nat.sub_diag. split; [reflexivity|lia].
  - apply IH in H as (Hle & c' & Hn & Hc). split; [lia|]. exists c'. split; [|exact Hc].
    replace (j - i)%nat with (S (j - S i)) by lia. exact Hn.
Qed.

Lemma log_remove_keys k l : map fst (log_remove k l) = filter (fun x => negb (x =? k)) (map fst l).
Proof.
  induction l as [|[k' v] l IH]; cbn; [reflexivity|].
  destruct (k' =? k); cbn; [exact IH|]. rewrite IH. reflexivity.
Qed.
Lemma filter_fst_keys (f : Z -> bool) (l : list (Z * Z)) :
  map fst (filter (fun p => f (fst p)) l) = filter f (map fst l).
Proof. induction l as [|[k v] l IH]; cbn; [reflexivity|]. destruct (f k); cbn; rewrite IH; reflexivity. Qed.
Lemma log_mem_In k l : log_mem k l = true <-> In k (map fst l).
Proof.
  unfold log_mem. rewrite existsb_exists, in_map_iff. split; intros (p & H1 & H2); exists p.
  - apply Z.eqb_eq in H2. auto.
  - split; [exact H2|apply Z.eqb_eq; exact H1].
Qed.

Lemma log_mem_remove k k' l : log_mem k (log_remove k' l) = log_mem k l && negb (k =? k').
Proof.
  unfold log_mem. induction l as [|[a v] l IH]; [reflexivity|]. cbn [log_remove existsb fst].
  destruct (a =? k') eqn:E; cbn [existsb fst]; rewrite IH;
    destruct (a =? k) eqn:E2; destruct (k =? k') eqn:E3; destruct (existsb _ l); cbn; try reflexivity; lia.
Qed.

Lemma log_mem_filter k f l : log_mem k (filter f l) = true -> log_mem k l = true.
Proof.
  unfold log_mem. rewrite !existsb_exists. intros (p & Hin & Hp). apply filter_In in Hin as [Hin _]. eauto.
Qed.

Lemma log_remove_absent k l : log_mem k l = false -> log_remove k l = l.
Proof.
  induction l as [|[k' v] l IH]; cbn; [reflexivity|]. destruct (k' =? k); cbn; [discriminate|].
  intros H. rewrite (IH H). reflexivity.
Qed.
Lemma log_remove_len k l : NoDup (map fst l) -> log_mem k l = true -> blen (log_remove k l) = blen l - 1.
Proof.
  induction l as [|[k' v] l IH]; cbn [map fst log_remove log_mem existsb]; intros Hn Hm; [discriminate|].
  inversion Hn as [|? ? Hk Hn']; subst. rewrite !blen_cons. destruct (k' =? k) eqn:E.
  - (* the keys are distinct: no further entry for k *)
    rewrite log_remove_absent; [lia|]. apply Bool.not_true_is_false. rewrite log_mem_In.
    replace k with k' by lia. exact Hk.
  - rewrite blen_cons, (IH Hn' Hm). lia.
Qed.

(** the part of [cong_nak] that does not depend on the burst bookkeeping *)
Lemma cong_nak_spec c w now :
  nak_count (fst (fst (cong_nak c w now))) = sat_add_i32 (nak_count c) 1 /\
  snd (fst (cong_nak c w now)) = Z.max (w - WINDOW_DECR) WINDOW_FLOOR /\
  snd (cong_nak c w now) = i32_ovf (w - WINDOW_DECR) /\
  fast (fst (fst (cong_nak c w now))) =
    (if (Z.max (w - WINDOW_DECR) WINDOW_FLOOR <=? FAST_RECOVERY_ENTER_WINDOW) && negb (fast c) then true else fast c).
Proof. unfold cong_nak. destruct (if _ && _ then _ else _) as [b bs]. repeat split. Qed.

Lemma first_hit_rel (f : link -> link * bool) skip : forall l i,
  Forall2i (fun k c c' => c' = c \/ (snd (f c) = true /\ c' = fst (f c) /\ skip <> Some k)) i l
           (fst (first_hit f skip i l)).
Proof.
  induction l as [|c l IH]; intros i; cbn; [constructor|].
  specialize (IH (S i)). destruct (first_hit f skip (S i) l) as [t' r]. cbn in IH.
  destruct (match skip with Some k => Nat.eqb k i | None => false end) eqn:Es;
    [constructor; [left; reflexivity|exact IH]|].
  destruct (f c) as [c' hit] eqn:Ef. destruct hit; cbn; constructor; auto.
  - right. rewrite Ef. repeat split. intros ->. rewrite Nat.eqb_refl in Es. discriminate.
  - apply Forall2i_refl. auto.
Qed.

Lemma first_hit_upd (f : link -> link * bool) skip : forall l i l' r,
  first_hit f skip i l = (l', r) ->
  match r with
  | None => l' = l /\
            (forall k c, nth_error l k = Some c -> skip <> Some (i + k)%nat -> snd (f c) = false)
  | Some j => exists k c, j = (i + k)%nat /\ nth_error l k = Some c /\ snd (f c) = true /\
                          skip <> Some j /\ l' = upd k (fun x => fst (f x)) l
  end.
Proof.
  induction l as [|c l IH]; intros i l' r H; cbn in H.
  { inversion H; subst. split; [reflexivity|]. intros [|k] c0 Hn; discriminate. }
  specialize (IH (S i)). destruct (first_hit f skip (S i) l) as [t' r'].
  specialize (IH _ _ eq_refl). cbn [Nat.add] in IH.
  assert (Hc : (l', r) = (c :: t', r') /\ (skip = Some i \/ snd (f c) = false) \/
               (l', r) = (fst (f c) :: l, Some i) /\ skip <> Some i /\ snd (f c) = true).
  { rewrite <- H. destruct skip as [s|]; [destruct (Nat.eqb_spec s i)|];
      [left; split; [reflexivity|left; congruence]| |];
      (destruct (f c) as [c' []]; [right|left]; cbn; repeat split; auto; congruence). }
  destruct Hc as [[E Hc]|(E & Hs & Hf)]; inversion E; subst.
  - destruct r' as [j|].
    + destruct IH as (k & c0 & -> & Hn & Hs & Hk & ->). exists (S k), c0.
      rewrite Nat.add_succ_r. repeat split; assumption.
    + destruct IH as [-> Hall]. split; [reflexivity|]. intros [|k] c0 Hn Hsk.
      * inversion Hn; subst. rewrite Nat.add_0_r in Hsk. destruct Hc; [contradiction|assumption].
      * rewrite Nat.add_succ_r in Hsk. exact (Hall k c0 Hn Hsk).
  - exists 0%nat, c. rewrite Nat.add_0_r. repeat split; assumption.
Qed.

Lemma specific_found c seq cl now :
  snd (handle_srtla_ack_specific c seq cl now) = log_mem seq (log c).
Proof.
  unfold handle_srtla_ack_specific. destruct (log_mem seq (log c)); [|reflexivity].
  destruct cl; [destruct (ack_classic _ _)|destruct (ack_enhanced _ _ _) as [[? ?] ?]]; reflexivity.
Qed.
Lemma nak_found c seq now : snd (handle_nak c seq now) = log_mem seq (log c).
Proof.
  unfold handle_nak. destruct (log_mem seq (log c)); [|reflexivity].
  destruct (cong_nak _ _ _) as [[? ?] ?]. reflexivity.
Qed.

Lemma specific_absent c seq cl now : log_mem seq (log c) = false -> fst (handle_srtla_ack_specific c seq cl now) = c.
Proof. intros H. unfold handle_srtla_ack_specific. rewrite H. reflexivity. Qed.
Lemma nak_absent c seq now : log_mem seq (log c) = false -> fst (handle_nak c seq now) = c.
Proof. intros H. unfold handle_nak. rewrite H. reflexivity. Qed.

(** A NAK is charged to at most one link; that link holds the number, and it is the
    remembered owner whenever the tracker still names a link of the list. *)
Lemma attribute_nak_cases ls t seq now :
  fst (attribute_nak ls t seq now) = ls \/
  exists k c, nth_error ls k = Some c /\ log_mem seq (log c) = true /\
    fst (attribute_nak ls t seq now) = upd k (fun x => fst (handle_nak x seq now)) ls /\
    match (match trk_get t seq now with Some id => find_pos id ls 0 | None => None end) with
    | Some pos => pos = k
    | None => True
    end.
Proof.
  unfold attribute_nak.
  (* without a remembered owner: the first link that holds the number.  In those branches the
     owner clause of the goal reduces to [True], hence the last conjunct. *)
  assert (Hfh : let r := first_hit (fun c => handle_nak c seq now) None 0 ls in
                fst r = ls \/ exists k c, nth_error ls k = Some c /\ log_mem seq (log c) = true /\
                  fst r = upd k (fun x => fst (handle_nak x seq now)) ls /\ True).
  { cbn zeta. destruct (first_hit _ None 0 ls) as [l' r] eqn:Ef. apply first_hit_upd in Ef.
    destruct r as [j|]; [|left; apply Ef]. destruct Ef as (k & c & _ & Hn & Hs & _ & ->).
    rewrite nak_found in Hs. right. exists k, c. auto. }
  destruct (trk_get t seq now) as [id|]; [|exact Hfh].
  destruct (find_pos id ls 0) as [pos|]; [|exact Hfh].
  destruct (nth_error ls pos) as [c|] eqn:En; [|left; reflexivity].
  pose proof (nak_found c seq now) as Hf. destruct (handle_nak c seq now) as [c' found].
  cbn in Hf. subst found. destruct (log_mem seq (log c)) eqn:Em; [|left; reflexivity].
  right. exists pos, c. auto.
Qed.

(** A per-packet SRTLA ACK retires the number on the arrival link if that link holds it,
    otherwise on the first other holder; the global +1 then runs over every link. *)
Lemma srtla_ack_event_cases ls idx seq cl now c : nth_error ls idx = Some c ->
  exists l1, srtla_ack_event ls idx seq cl now = map handle_srtla_ack_global l1 /\
  ((l1 = ls /\ forall c0, In c0 ls -> log_mem seq (log c0) = false) \/
   exists k c0, nth_error ls k = Some c0 /\ log_mem seq (log c0) = true /\
     l1 = upd k (fun x => fst (handle_srtla_ack_specific x seq cl now)) ls /\
     (log_mem seq (log c) = true -> k = idx)).
Proof.
  intros En. unfold srtla_ack_event. rewrite En.
  pose proof (specific_found c seq cl now) as Hf.
  destruct (handle_srtla_ack_specific c seq cl now) as [c' found]. cbn in Hf. subst found.
  eexists. split; [reflexivity|]. destruct (log_mem seq (log c)) eqn:Em.
  { right. exists idx, c. auto. }
  destruct (first_hit _ (Some idx) 0 ls) as [l' r] eqn:Ef.
  apply first_hit_upd in Ef. cbn [fst]. destruct r as [j|].
  - destruct Ef as (k & c0 & _ & Hn & Hs & _ & ->). rewrite specific_found in Hs.
    right. exists k, c0. repeat split; auto. discriminate.
  - destruct Ef as [-> Hall]. left. split; [reflexivity|]. intros c0 Hin. apply In_nth_error in Hin as [k Hn].
    destruct (Nat.eq_dec k idx) as [->|Hk]; [congruence|].
    rewrite <- specific_found with (cl := cl) (now := now). apply (Hall k c0 Hn). cbn. congruence.
Qed.

Definition at_idx (k i : nat) (c c' fc : link) : Prop := (i = k /\ c' = fc) \/ (i <> k /\ c' = c).

Definition ltrans (o : op) (i : nat) (c c' : link) : Prop :=
  match o with
  | ORegister k seq t => at_idx k i c c' (register_packet c seq t)
  | OSrtAck a _ => c' = handle_srt_ack c a
  | OSrtlaAck idx seq cl now =>
    c' = c \/      (* arrival index out of range: the event is dropped *)
    c' = handle_srtla_ack_global c \/
    c' = handle_srtla_ack_global (fst (handle_srtla_ack_specific c seq cl now))
  | ONak seq now => c' = c \/ c' = fst (handle_nak c seq now)
  | ORecovery k now v => at_idx k i c c' (perform_window_recovery c now v)
  | OCcAck k cl inf => at_idx k i c c' (cc_ack c cl inf)
  | OCcNak k now => at_idx k i c c' (cc_nak c now)
  | OGlobal k => at_idx k i c c' (handle_srtla_ack_global c)
  | OMarkRecovery k => at_idx k i c c' (mark_for_recovery c)
  | OResetReconnect k => at_idx k i c c' (reset_for_reconnect c)
  | OReg3 k now => at_idx k i c c' (reg3_clear c now)
  | OSetConn k b lr => at_idx k i c c' (set_conn c b lr)
  | OSetWindow k w => at_idx k i c c' (set_window c w)
  | OTrack _ _ _ | ORemoveConn _ => c' = c
  end.

Theorem step_ltrans s o : Forall2i (ltrans o) 0 (links s) (links (step s o)).
Proof.
  destruct o; cbn [step on links]; try exact (upd_rel _ _ _ 0).
  - destruct (nth_error _ _); apply Forall2i_refl; reflexivity.
  - exact (Forall2i_map _ 0 _).
  - destruct (nth_error (links s) idx) as [c|] eqn:En.
    2:{ unfold srtla_ack_event. rewrite En. apply Forall2i_refl. left; reflexivity. }
    destruct (srtla_ack_event_cases _ _ seq classic now _ En) as (l1 & -> & [[-> _]|(k & _ & _ & _ & -> & _)]).
    + eapply Forall2i_impl; [|apply Forall2i_map]. intros j x y ->. right; left; reflexivity.
    + eapply Forall2i_map_r; [|apply (upd_rel _ (links s) k 0)]. cbn.
      intros j x y [[_ ->]|[_ ->]]; right; [right|left]; reflexivity.
  - destruct (attribute_nak_cases (links s) (trk s) seq now) as [->|(k & _ & _ & _ & -> & _)].
    + apply Forall2i_refl. left; reflexivity.
    + eapply Forall2i_impl; [|apply (upd_rel _ (links s) k 0)]. cbn.
      intros j x y [[_ ->]|[_ ->]]; [right|left]; reflexivity.
  - destruct (nth_error _ _); apply Forall2i_refl; reflexivity.
Qed.

Lemma cid_global c : cid (handle_srtla_ack_global c) = cid c.
Proof. unfold handle_srtla_ack_global. destruct (_ && _); reflexivity. Qed.

Lemma ltrans_cid o i c c' : ltrans o i c c' -> cid c' = cid c.
Proof.
  assert (Hat : forall k fc, at_idx k i c c' fc -> cid fc = cid c -> cid c' = cid c)
    by (intros k fc [[_ ->]|[_ ->]]; auto).
  destruct o; cbn [ltrans]; intros H; try (apply (Hat _ _ H)); try (subst c'); try reflexivity.
  - unfold handle_srt_ack. destruct (_ <=? _); reflexivity.
  - destruct H as [->|[->| ->]]; rewrite ?cid_global; [reflexivity..|].
    unfold handle_srtla_ack_specific. destruct (log_mem _ _); [|reflexivity].
    destruct (if classic then _ else _) as [[? ?] ?]. reflexivity.
  - destruct H as [->| ->]; [reflexivity|]. unfold handle_nak. destruct (log_mem _ _); [|reflexivity].
    destruct (cong_nak _ _ _) as [[? ?] ?]. reflexivity.
  - unfold perform_window_recovery. destruct (recovery _ _ _ _ _) as [[? ?] ?]. reflexivity.
  - unfold cc_ack. destruct (if classic then _ else _) as [[? ?] ?]. reflexivity.
  - unfold cc_nak. destruct (cong_nak _ _ _) as [[? ?] ?]. reflexivity.
  - apply cid_global.
Qed.

Lemma step_cids s o : map cid (links (step s o)) = map cid (links s).
Proof. symmetry. eapply Forall2i_map_eq; [apply step_ltrans|]. intros j a b H. symmetry. exact (ltrans_cid _ _ _ _ H). Qed.
