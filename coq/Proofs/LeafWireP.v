(** LeafWireP.v — the hand-written wire codec model (Model/Wire.v) = the definitions that
    tools/gen_wire.py regenerates from crates/srtla-protocol/src/{types,parsers,builders}.rs on every
    run (coq/Gen/LeafWire.v); see DESIGN.md §12.8.

    One lemma per translated function, for ALL arguments.  Hypotheses, where a lemma has one:
    - [bytes_ok b] (every element of the input is in 0..255, which `&[u8]` guarantees) where the Rust
      body uses `&`/`|` on bytes and the hand model uses the comparison / arithmetic form;
    - [blen id = SRTLA_ID_LEN] (the Rust type `&[u8; SRTLA_ID_LEN]`) for the REG builders;
    - [length info = 6] (the six fields of `ConnectionInfo`) for the extended keepalive builder;
    - [blen b + 4 < two64] (a Rust slice is shorter than 2^63) for the `while` loop of parse_srtla_ack,
      whose index arithmetic the translation checks for overflow; [blen b + 8 < two64] and [bytes_ok b] for
      parse_srt_nak (two index steps per iteration; `& 0x8000_0000` / `&= 0x7fff_ffff` against the hand
      model's comparison and subtraction);
    - [4 + 4 * blen acks < two64] for create_ack_packet (the checked `4 + 4 * acks.len()`; a `&[u32]` is
      shorter than 2^61 elements).
    The proofs do not depend on the shape of the generated terms: both sides are unfolded, a read with
    which both sides start is taken once for both, every other
    [get b i] is split into its outcomes (out-of-range outcomes are discharged from the length guards
    in force when they are provably impossible, and otherwise must agree on both sides), every
    condition is split, bit masks are turned into comparisons, and the leaves are closed by
    reflexivity / linear arithmetic. *)
From Coq Require Import ZArith Bool Lia ZifyBool List.
From Srtla Require Import Base BaseP Constants Splice LeafWire LeafTac.
From Srtla Require Wire.
Import ListNotations.
Local Open Scope Z_scope.


Lemma wget_in b i : 0 <= i < blen b -> get b i = Ok (nth (Z.to_nat i) b 0).
Proof.
  intros H. unfold get.
  replace ((0 <=? i) && (i <? blen b)) with true; [reflexivity|].
  symmetry. apply andb_true_iff. split; [apply Z.leb_le | apply Z.ltb_lt]; lia.
Qed.

Lemma wget_not_fuel b i : get b i <> Fuel.
Proof. unfold get. destruct ((0 <=? i) && (i <? blen b)); discriminate. Qed.

Lemma wget_byte b i x : bytes_ok b -> get b i = Ok x -> 0 <= x < 256.
Proof.
  unfold get, bytes_ok, blen. intros Hb.
  destruct ((0 <=? i) && (i <? Z.of_nat (length b))) eqn:E; [|discriminate].
  intros H. injection H as <-.
  apply andb_true_iff in E. destruct E as [E1 E2].
  apply Z.leb_le in E1. apply Z.ltb_lt in E2.
  rewrite Forall_forall in Hb. apply Hb. apply nth_In. lia.
Qed.

Lemma wland_pow2 x m n : 0 <= n -> m = 2 ^ n -> Z.land x m = if Z.testbit x n then m else 0.
Proof.
  intros Hn ->. apply Z.bits_inj'. intros k Hk.
  rewrite Z.land_spec, Z.pow2_bits_eqb by lia.
  destruct (Z.testbit x n) eqn:E.
  - rewrite Z.pow2_bits_eqb by lia. destruct (Z.eqb_spec n k) as [<-|]; [rewrite E|rewrite andb_false_r]; reflexivity.
  - rewrite Z.bits_0. destruct (Z.eqb_spec n k) as [<-|]; [rewrite E|rewrite andb_false_r]; reflexivity.
Qed.

Lemma wtestbit_top x n lo : 0 <= n -> lo = 2 ^ n -> 0 <= x < 2 * lo -> Z.testbit x n = (lo <=? x).
Proof.
  intros Hn -> Hx.
  destruct (Z.leb_spec (2 ^ n) x) as [H|H].
  - rewrite Z.testbit_true by lia.
    assert (x / 2 ^ n = 1) as ->; [|reflexivity].
    symmetry. apply Z.div_unique with (r := x - 2 ^ n); lia.
  - apply Z.testbit_false; [lia|]. rewrite Z.div_small by lia. reflexivity.
Qed.

Lemma wlor_low a x : a mod 256 = 0 -> 0 <= x < 256 -> Z.lor a x = a + x.
Proof.
  intros Ha Hx.
  assert (Hl : Z.land a x = 0).
  { rewrite (Z.div_mod a 256) by lia. rewrite Ha, Z.add_0_r, Z.mul_comm.
    change 256 with (2 ^ 8). rewrite <- Z.shiftl_mul_pow2 by lia.
    apply Z.bits_inj'. intros k Hk. rewrite Z.land_spec, Z.bits_0, Z.shiftl_spec by lia.
    destruct (Z.ltb_spec k 8) as [L|L].
    - rewrite Z.testbit_neg_r by lia. reflexivity.
    - assert (Z.testbit x k = false) as ->; [|apply andb_false_r].
      apply Z.testbit_false; [lia|]. rewrite Z.div_small; [reflexivity|]. split; [lia|].
      apply Z.lt_le_trans with (2 ^ 8); [lia|]. apply Z.pow_le_mono_r; lia. }
  rewrite <- Z.lxor_lor by exact Hl. symmetry. apply Z.add_nocarry_lxor. exact Hl.
Qed.

Lemma wland_ones x m n : 0 <= n -> m = 2 ^ n - 1 -> Z.land x m = x mod 2 ^ n.
Proof. intros Hn ->. rewrite <- Z.land_ones by exact Hn. rewrite Z.ones_equiv. reflexivity. Qed.

Lemma wshl8_low t : ((Z.shiftl t 8) mod two64) mod 256 = 0.
Proof.
  rewrite Z.shiftl_mul_pow2 by lia. unfold two64. change (2 ^ 8) with 256. Z.div_mod_to_equations. lia.
Qed.

(* range of a byte expression / of be16, be32 of bytes, from the facts put in the context by [wire_get];
   a mask or shift by a literal is by now a quotient or remainder, which [lia] is given as its equations *)
Ltac wire_range := unfold be16, be32 in *; Z.div_mod_to_equations; lia.

Ltac wire_get b i :=
  let E := fresh "E" in
  let x := fresh "x" in
  destruct (get b i) as [x| |] eqn:E;
  [ try pose proof (wget_byte b i x ltac:(assumption) E)
  | try (exfalso; rewrite wget_in in E by lia; discriminate E)
  | exfalso; exact (wget_not_fuel b i E) ].

(* bit operations with a literal become arithmetic, before any case is split *)
Ltac wire_arith :=
  match goal with
  (* x & 2^n  ~>  if testbit x n then 2^n else 0 *)
  | |- context [Z.land ?x ?m] =>
      leaf_is_Zlit m; let n := eval vm_compute in (Z.log2 m) in
      rewrite (wland_pow2 x m n) by first [reflexivity | lia]
  | |- context [Z.land ?m ?x] =>
      leaf_is_Zlit m; let n := eval vm_compute in (Z.log2 m) in
      rewrite (Z.land_comm m x), (wland_pow2 x m n) by first [reflexivity | lia]
  (* x & (2^n - 1)  ~>  x mod 2^n *)
  | |- context [Z.land ?x ?m] =>
      leaf_is_Zlit m; let n := eval vm_compute in (Z.log2 (m + 1)) in
      let p := eval vm_compute in (2 ^ n) in
      rewrite (wland_ones x m n) by first [reflexivity | lia]; change (2 ^ n) with p
  (* top bit of a bounded value is a comparison *)
  | |- context [Z.testbit ?x ?n] =>
      leaf_is_Zlit n; let lo := eval vm_compute in (2 ^ n) in
      rewrite (wtestbit_top x n lo) by first [ reflexivity | lia | wire_range ]
  (* x >> n  ~>  x / 2^n *)
  | |- context [Z.shiftr ?x ?n] =>
      leaf_is_Zlit n; let p := eval vm_compute in (2 ^ n) in
      rewrite (Z.shiftr_div_pow2 x n) by lia; change (2 ^ n) with p
  (* (t << 8) mod 2^64 | byte  ~>  sum *)
  | |- context [Z.lor ?a ?x] =>
      first [ rewrite (wlor_low a x) by first [ apply wshl8_low | wire_range ]
            | rewrite (Z.lor_comm a x), (wlor_low x a) by first [ apply wshl8_low | wire_range ] ]
  end.

(* Two computations that start with the same read (or call) agree if what follows it agrees for every value read;
   the second form also moves the read out of an inner [bind] (the model's [be32_at], an `&&` of the source), the
   third does so on both sides (a loop body, whose state is projected by a last [bind]). *)
Lemma wbind_cong {A B} (m : res A) (f g : A -> res B) :
  (forall x, m = Ok x -> f x = g x) -> bind m f = bind m g.
Proof. intros H. destruct m; cbn; auto. Qed.

Lemma wbind_cong_l {A B C} (m : res A) (f : A -> res B) (g : B -> res C) h :
  (forall x, m = Ok x -> bind (f x) g = h x) -> bind (bind m f) g = bind m h.
Proof. intros H. destruct m; cbn; auto. Qed.

Lemma wbind_cong_b {A B B' C} (m : res A) (f : A -> res B) (g : B -> res C) (f' : A -> res B') g' :
  (forall x, m = Ok x -> bind (f x) g = bind (f' x) g') -> bind (bind m f) g = bind (bind m f') g'.
Proof. intros H. destruct m; cbn; auto. Qed.

(* a step at the head of both sides, [bind] folded: a [bind] of an [Ok] is run; when both sides start with the same
   read (up to closed index arithmetic), the goal becomes their continuations, by the lemmas above with either side
   as the left one, so that every later step works on what follows the read only.  Reads that do not line up are
   left to [wire_case]. *)
Ltac wire_bind :=
  lazymatch goal with
  | |- bind (Ok ?a) ?f = ?r => let t := eval cbv beta in (f a) in change (t = r)
  | |- _ = bind (Ok _) _ => symmetry
  | |- bind _ _ = bind _ _ =>
      first [ apply wbind_cong_b | apply wbind_cong_l | symmetry; apply wbind_cong_l | apply wbind_cong ];
      let E := fresh "E" in intros ? E; try pose proof (wget_byte _ _ _ ltac:(eassumption) E)
  end.

(* one case split: a condition without a read inside, then a read; the new redexes are reduced *)
Ltac wire_case :=
  match goal with
  (* a checked `+`/`*` (`if y <? 2^64 then .. else Oob`) that the bounds in force rule out: no case split *)
  | |- context [if (?y <? 18446744073709551616) then _ else _] =>
      replace (y <? 18446744073709551616) with true by (symmetry; apply Z.ltb_lt; lia)
  (* closed conditions *)
  | |- context [if ?c then _ else _] =>
      leaf_closed c; let v := eval vm_compute in c in
      lazymatch v with true => change c with true | false => change c with false end
  | |- context [if ?c then _ else _] =>
      lazymatch c with
      | context [get _ _] => fail
      | context [if _ then _ else _] => fail
      | _ => idtac
      end; destruct c eqn:?
  | |- context [match ?o with Some _ => _ | None => _ end] => destruct o eqn:?
  (* a call or read that [wire_bind] could not take: split where it stands, with [bind] unfolded from here on *)
  | |- context [Wire.get_packet_type ?b] => cbv delta [bind]; destruct (Wire.get_packet_type b) as [[?|]| |]
  (* closed index arithmetic (unrolled loops): 2 + (0 + 1)  ~>  3, so that a read is the same term wherever it occurs *)
  | |- context [get ?b ?i] =>
      tryif leaf_is_Zlit i then fail else idtac;
      leaf_closed i; let v := eval vm_compute in i in leaf_is_Zlit v; change i with v
  | |- context [get ?b ?i] => cbv delta [bind]; wire_get b i
  end; cbv beta iota.

Ltac wire_step := first [ wire_bind | wire_arith | wire_case ].

Ltac wire_close :=
  first [ reflexivity
        | exfalso; lia
        | exfalso; congruence
        | exfalso; wire_range
        | rewrite ?Z.shiftl_mul_pow2 by lia; change (2 ^ 8) with 256 in *; first [ reflexivity | repeat f_equal; lia ]
        | leaf_eq2 ].

Lemma leaf_wire_get_packet_type_ok b : Wire.get_packet_type b = leaf_wire_get_packet_type b.
Proof. unfold Wire.get_packet_type, leaf_wire_get_packet_type, bind; repeat wire_step; wire_close. Qed.

(* both sides down to [get], conditions and bit operations; a call of the translated [get_packet_type] is the
   model's, by the lemma above, and its result is split as a whole *)
Ltac wire_unfold :=
  cbv beta iota zeta delta
    [Wire.be32_at Wire.be16_at Wire.get_srt_sequence_number Wire.is_srt_data_retransmit
     Wire.type_is Wire.is_srtla_reg1 Wire.is_srtla_reg2 Wire.is_srtla_reg3 Wire.is_srtla_keepalive Wire.is_srt_ack
     Wire.ts_loop Wire.extract_keepalive_timestamp Wire.extract_keepalive_conn_info Wire.parse_srt_ack
     leaf_wire_get_srt_sequence_number leaf_wire_is_srt_data_retransmit
     leaf_wire_is_srtla_reg1 leaf_wire_is_srtla_reg2 leaf_wire_is_srtla_reg3 leaf_wire_is_srtla_keepalive
     leaf_wire_is_srt_ack leaf_wire_parse_srt_ack leaf_wire_extract_keepalive_timestamp
     leaf_wire_extract_keepalive_conn_info
     SRTLA_TYPE_REG1_LEN SRTLA_TYPE_REG2_LEN SRTLA_TYPE_REG3_LEN SRTLA_TYPE_REG1 SRTLA_TYPE_REG2 SRTLA_TYPE_REG3
     SRTLA_TYPE_KEEPALIVE SRTLA_TYPE_ACK SRT_TYPE_ACK SRT_TYPE_NAK SRTLA_KEEPALIVE_EXT_LEN SRTLA_KEEPALIVE_MAGIC
     SRTLA_KEEPALIVE_EXT_VERSION SRTLA_ID_LEN two31 two32];
  repeat match goal with
         | |- context [leaf_wire_get_packet_type ?b] =>
             generalize (leaf_wire_get_packet_type_ok b); generalize (leaf_wire_get_packet_type b); intros ? <-
         end.

Ltac wire_auto := intros; wire_unfold; repeat wire_step; wire_close.

Lemma leaf_wire_get_srt_sequence_number_ok b :
  bytes_ok b -> Wire.get_srt_sequence_number b = leaf_wire_get_srt_sequence_number b.
Proof. wire_auto. Qed.

Lemma leaf_wire_is_srt_data_retransmit_ok b :
  bytes_ok b -> Wire.is_srt_data_retransmit b = leaf_wire_is_srt_data_retransmit b.
Proof. wire_auto. Qed.

Lemma leaf_wire_is_srtla_reg1_ok b : Wire.is_srtla_reg1 b = leaf_wire_is_srtla_reg1 b.
Proof. wire_auto. Qed.

Lemma leaf_wire_is_srtla_reg2_ok b : Wire.is_srtla_reg2 b = leaf_wire_is_srtla_reg2 b.
Proof. wire_auto. Qed.

Lemma leaf_wire_is_srtla_reg3_ok b : Wire.is_srtla_reg3 b = leaf_wire_is_srtla_reg3 b.
Proof. wire_auto. Qed.

Lemma leaf_wire_is_srtla_keepalive_ok b : Wire.is_srtla_keepalive b = leaf_wire_is_srtla_keepalive b.
Proof. wire_auto. Qed.

Lemma leaf_wire_is_srt_ack_ok b : Wire.is_srt_ack b = leaf_wire_is_srt_ack b.
Proof. wire_auto. Qed.

Lemma leaf_wire_parse_srt_ack_ok b : Wire.parse_srt_ack b = leaf_wire_parse_srt_ack b.
Proof. wire_auto. Qed.

Lemma leaf_wire_extract_keepalive_timestamp_ok b :
  bytes_ok b -> Wire.extract_keepalive_timestamp b = leaf_wire_extract_keepalive_timestamp b.
Proof. wire_auto. Qed.

Lemma leaf_wire_extract_keepalive_conn_info_ok b :
  Wire.extract_keepalive_conn_info b = leaf_wire_extract_keepalive_conn_info b.
Proof. wire_auto. Qed.

(** `while` loop of parse_srtla_ack: the translation is a fuelled Fixpoint over the locals the body assigns
    (declaration order: out, i) with the same fuel as the hand model; index arithmetic on `i` is checked
    (overflow = panic), which the length bound of the hypothesis rules out (a Rust slice is shorter than
    2^63). *)
(* equality of two applications whose arguments are equal up to linear arithmetic / byte ranges *)
Ltac eq_args := repeat first [ reflexivity | lia | wire_range | f_equal ].

(* the loop's state is projected to the model's result by a last [bind], so that [wire_bind] sees a [bind] on both sides *)
Lemma leaf_wire_parse_srtla_ack_loop_ok fuel : forall b i out,
  0 <= i <= blen b -> blen b + 4 < two64 ->
  (x <- leaf_wire_parse_srtla_ack_loop1 fuel b out i ;; Ok (fst x)) = Wire.ack_loop fuel b i out.
Proof.
  induction fuel as [|fuel IH]; intros b i out Hi Hb; [reflexivity|].
  unfold two64 in *.
  cbn [leaf_wire_parse_srtla_ack_loop1 Wire.ack_loop].
  cbv beta zeta delta [Wire.be32_at two64].
  repeat wire_step.
  all: first [ wire_close
             | rewrite IH by (unfold two64; lia); eq_args ].
Qed.

Lemma leaf_wire_parse_srtla_ack_ok b :
  blen b + 4 < two64 -> Wire.parse_srtla_ack b = leaf_wire_parse_srtla_ack b.
Proof.
  intros Hb.
  cbv beta zeta delta [Wire.parse_srtla_ack leaf_wire_parse_srtla_ack].
  wire_unfold.
  repeat wire_step.
  all: try (rewrite <- (leaf_wire_parse_srtla_ack_loop_ok (S (length b)) b) by (unfold two64 in *; lia);
            match goal with |- context [leaf_wire_parse_srtla_ack_loop1 ?f ?b ?o ?j] =>
              destruct (leaf_wire_parse_srtla_ack_loop1 f b o j) as [[? ?]| |] end).
  all: wire_close.
Qed.

(** Nested `while` of parse_srt_nak.  The inner loop (`while seq <= end && out.len() < 1000`) is its own
    fuelled Fixpoint over (out, seq), started with the fuel the translator read off the `out.len() < K`
    conjunct, S (K - len out); the first lemma shows that this fuel is never exhausted (every iteration
    pushes) and that the result is the hand model's [nak_expand].  The outer loop is as for
    parse_srtla_ack. *)
Lemma leaf_wire_parse_srt_nak_loop2_ok fuel : forall en out seq,
  (Z.to_nat (Wire.NAK_RANGE_CAP - blen out) < fuel)%nat ->
  exists s, leaf_wire_parse_srt_nak_loop2 fuel en out seq
            = Ok (Wire.nak_expand (Z.to_nat (Wire.NAK_RANGE_CAP - blen out)) seq en out, s).
Proof.
  unfold Wire.NAK_RANGE_CAP.
  induction fuel as [|fuel IH]; intros en out seq Hf; [lia|].
  cbn [leaf_wire_parse_srt_nak_loop2]. cbv zeta.
  match goal with |- context [if ?c then _ else _] => destruct c eqn:C end.
  - pose proof (blen_snoc out seq) as Hl.
    match goal with |- context [leaf_wire_parse_srt_nak_loop2 fuel ?e ?o ?s] =>
      destruct (IH e o s) as [s' Hs]; [lia|]; exists s'; rewrite Hs end.
    rewrite Hl.
    replace (Z.to_nat (1000 - blen out)) with (S (Z.to_nat (1000 - (blen out + 1)))) by lia.
    cbn [Wire.nak_expand]. replace (seq <=? en) with true by lia. reflexivity.
  - exists seq. do 2 f_equal.
    destruct (Z.to_nat (1000 - blen out)) eqn:E; cbn [Wire.nak_expand]; [reflexivity|].
    replace (seq <=? en) with false by lia. reflexivity.
Qed.

Lemma leaf_wire_parse_srt_nak_loop1_ok fuel : forall b i out,
  bytes_ok b -> 0 <= i <= blen b -> blen b + 8 < two64 ->
  (x <- leaf_wire_parse_srt_nak_loop1 fuel b out i ;; Ok (fst x)) = Wire.nak_loop fuel b i out.
Proof.
  induction fuel as [|fuel IH]; intros b i out Hbytes Hi Hb; [reflexivity|].
  unfold two64 in Hb.
  cbn [leaf_wire_parse_srt_nak_loop1 Wire.nak_loop].
  cbv beta zeta delta [Wire.be32_at two64 two31 Wire.NAK_RANGE_CAP].
  repeat wire_step.
  all: try (match goal with |- context [leaf_wire_parse_srt_nak_loop2 ?f ?e ?o ?s] =>
         let Hs := fresh in
         destruct (leaf_wire_parse_srt_nak_loop2_ok f e o s) as [? Hs];
         [unfold Wire.NAK_RANGE_CAP; lia|]; unfold Wire.NAK_RANGE_CAP in Hs; rewrite Hs; cbn [bind] end).
  all: first [ wire_close
             | rewrite IH by first [assumption | unfold two64; lia]; eq_args ].
Qed.

Lemma leaf_wire_parse_srt_nak_ok b :
  bytes_ok b -> blen b + 8 < two64 -> Wire.parse_srt_nak b = leaf_wire_parse_srt_nak b.
Proof.
  intros Hbytes Hb.
  cbv beta zeta delta [Wire.parse_srt_nak leaf_wire_parse_srt_nak].
  wire_unfold.
  repeat wire_step.
  all: try (rewrite <- (leaf_wire_parse_srt_nak_loop1_ok (S (length b)) b) by first [assumption | unfold two64 in *; lia];
            match goal with |- context [leaf_wire_parse_srt_nak_loop1 ?f ?b ?o ?j] =>
              destruct (leaf_wire_parse_srt_nak_loop1 f b o j) as [[? ?]| |] end).
  all: wire_close.
Qed.

(** builders.rs.  The hand-written builders are plain list functions (they cannot fail); the translation is in the
    [res] monad because `copy_from_slice` panics on a length mismatch.  Both sides are computed (the
    arithmetic on the abstract arguments is left alone) and compared element by element. *)
Ltac wire_build_unfold :=
  cbv beta zeta delta
    [Wire.create_reg1_packet Wire.create_reg2_packet Wire.create_keepalive_packet Wire.create_keepalive_packet_ext
     leaf_wire_create_reg1_packet leaf_wire_create_reg2_packet leaf_wire_create_keepalive_packet
     leaf_wire_create_keepalive_packet_ext splice].

Ltac wire_list_eq :=
  lazymatch goal with
  | |- Ok _ = Ok _ => apply f_equal; wire_list_eq
  | |- _ :: _ = _ :: _ => apply (f_equal2 cons); [ first [reflexivity | lia] | wire_list_eq ]
  | |- _ => first [ reflexivity | symmetry; apply app_nil_r | apply app_nil_r ]
  end.

Ltac wire_build := 
  wire_build_unfold;
  repeat match goal with H : blen _ = _ |- _ => rewrite !H; clear H end;
  cbv -[Z.div Z.modulo];
  wire_list_eq.

Lemma leaf_wire_create_reg1_packet_ok id :
  blen id = SRTLA_ID_LEN -> Ok (Wire.create_reg1_packet id) = leaf_wire_create_reg1_packet id.
Proof. intros H. wire_build. Qed.

Lemma leaf_wire_create_reg2_packet_ok id :
  blen id = SRTLA_ID_LEN -> Ok (Wire.create_reg2_packet id) = leaf_wire_create_reg2_packet id.
Proof. intros H. wire_build. Qed.

Lemma leaf_wire_create_keepalive_packet_ok now :
  Ok (Wire.create_keepalive_packet now) = leaf_wire_create_keepalive_packet now.
Proof. wire_build. Qed.

Lemma leaf_wire_create_keepalive_packet_ext_ok info now :
  length info = 6%nat ->
  Ok (Wire.create_keepalive_packet_ext info now) = leaf_wire_create_keepalive_packet_ext info now.
Proof.
  intros H. do 7 (destruct info as [|? info]; try discriminate H). clear H. wire_build.
Qed.

(** create_ack_packet: `vec![0u8; 4 + 4 * acks.len()]`, three stores in the header, then
    `for (i, &ack) in acks.iter().enumerate()`, translated as a Fixpoint by structural recursion on the
    list (no fuel) with the counter i; every store is a [splice].  [splice_spec] is the only fact about
    [splice] the proofs use: a store inside the buffer succeeds, keeps the length and fixes the prefix
    up to its end. *)
Lemma splice_spec d lo hi s :
  0 <= lo <= hi -> hi <= blen d -> blen s = hi - lo ->
  exists d', splice d lo hi s = Ok d' /\ blen d' = blen d /\
             (forall n, n = Z.to_nat hi -> firstn n d' = firstn (Z.to_nat lo) d ++ s).
Proof.
  intros H1 H2 H3. unfold splice.
  replace ((0 <=? lo) && (lo <=? hi) && (hi <=? blen d) && (blen s =? hi - lo)) with true by lia.
  eexists. split; [reflexivity|]. unfold blen in *. split.
  - rewrite !app_length, firstn_length, skipn_length. lia.
  - intros n ->. rewrite app_assoc, firstn_app.
    rewrite app_length, firstn_length.
    replace (Z.to_nat hi - (Nat.min (Z.to_nat lo) (length d) + length s))%nat with 0%nat by lia.
    cbn [firstn]. rewrite app_nil_r. apply firstn_all2. rewrite app_length, firstn_length. lia.
Qed.

Ltac blen_lit := unfold blen; cbn [be_bytes length]; lia.

Ltac splice_step :=
  match goal with |- context [splice ?d ?lo ?hi ?s] =>
    let d' := fresh "d" in let E := fresh "E" in let L := fresh "L" in let F := fresh "F" in
    destruct (splice_spec d lo hi s) as (d' & E & L & F);
    [ lia | lia | first [ lia | blen_lit ] | rewrite E; cbv beta iota delta [bind] ]
  end.

Lemma leaf_wire_create_ack_packet_loop1_ok : forall l i pkt,
  0 <= i -> blen pkt = 4 + 4 * (i + blen l) -> 4 + 4 * (i + blen l) < two64 ->
  leaf_wire_create_ack_packet_loop1 l i pkt
  = Ok (firstn (Z.to_nat (4 + 4 * i)) pkt ++ concat (map (be_bytes 4) l)).
Proof.
  unfold two64.
  induction l as [|a l IH]; intros i pkt Hi Hp Hb; cbn [leaf_wire_create_ack_packet_loop1 map concat].
  - change (blen (@nil Z)) with 0 in Hp. rewrite app_nil_r, firstn_all2; [reflexivity|]. unfold blen in Hp. lia.
  - pose proof (blen_cons a l) as Hc. pose proof (blen_nonneg l).
    cbv zeta delta [two64]. repeat wire_step.
    splice_step.
    rewrite IH by lia. rewrite (F _) by lia. rewrite <- app_assoc.
    do 2 f_equal. f_equal. lia.
Qed.

Lemma leaf_wire_create_ack_packet_ok acks :
  4 + 4 * blen acks < two64 -> Ok (Wire.create_ack_packet acks) = leaf_wire_create_ack_packet acks.
Proof.
  unfold two64. intros Hb. pose proof (blen_nonneg acks).
  cbv beta zeta delta [Wire.create_ack_packet leaf_wire_create_ack_packet two64].
  repeat wire_step.
  match goal with |- context [repeat 0 ?n] => pose proof (blen_repeat 0 n); generalize dependent (repeat 0 n); intros end.
  repeat splice_step.
  rewrite leaf_wire_create_ack_packet_loop1_ok by (unfold two64; lia).
  repeat match goal with F : forall n, n = _ -> firstn n ?d = _ |- context [firstn _ ?d] => rewrite (F _) by lia end.
  cbn [Z.to_nat firstn app]. rewrite <- !app_assoc. reflexivity.
Qed.
