(** SetP.v — sorted-list sets: insertion sort, membership, extensionality. *)
From Srtla Require Import Base Constants Conn Run_Core Run_C02 BaseP.
From Coq Require Import Sorting.Sorted ZifyBool.

Lemma insert_sorted_In x y l : In y (insert_sorted x l) <-> y = x \/ In y l.
Proof.
  induction l as [|z l IH]; cbn; [intuition|].
  destruct (x <=? z); cbn; [intuition|]. rewrite IH. intuition.
Qed.
Lemma sort_z_In x l : In x (sort_z l) <-> In x l.
Proof.
  induction l as [|y l IH]; cbn; [tauto|]. rewrite insert_sorted_In, IH. intuition.
Qed.

Lemma insert_sorted_length x l : length (insert_sorted x l) = S (length l).
Proof. induction l as [|y l IH]; cbn; [reflexivity|]. destruct (x <=? y); cbn; [reflexivity|]. rewrite IH. reflexivity. Qed.
Lemma sort_z_length l : length (sort_z l) = length l.
Proof. induction l as [|x l IH]; cbn; [reflexivity|]. rewrite insert_sorted_length. f_equal. exact IH. Qed.

Definition ssorted (l : list Z) : Prop := StronglySorted Z.lt l.

Lemma insert_sorted_sorted x l : ssorted l -> ~ In x l -> ssorted (insert_sorted x l).
Proof.
  induction l as [|z l IH]; intros Hs Hn; cbn.
  - constructor; constructor.
  - inversion Hs as [|? ? Hs' Hall]; subst. destruct (x <=? z) eqn:E.
    + assert (x < z) by (cbn in Hn; lia).
      constructor; [exact Hs|]. constructor; [assumption|].
      eapply Forall_impl; [|exact Hall]. cbn. intros; lia.
    + constructor; [apply IH; [exact Hs'|cbn in Hn; tauto]|].
      rewrite Forall_forall. intros y Hy. apply insert_sorted_In in Hy as [->|Hy]; [lia|].
      rewrite Forall_forall in Hall. auto.
Qed.
Lemma sort_z_sorted l : NoDup l -> ssorted (sort_z l).
Proof.
  induction 1 as [|x l Hn Hd IH]; cbn; [constructor|].
  apply insert_sorted_sorted; [exact IH|]. rewrite sort_z_In. exact Hn.
Qed.

Lemma sorted_ext l1 : forall l2, ssorted l1 -> ssorted l2 -> (forall x, In x l1 <-> In x l2) -> l1 = l2.
Proof.
  induction l1 as [|a l1 IH]; intros [|b l2] H1 H2 Hx; [reflexivity|destruct (proj2 (Hx b)); left; reflexivity
                                                        |destruct (proj1 (Hx a)); left; reflexivity|].
  inversion H1 as [|? ? S1 A1]; inversion H2 as [|? ? S2 A2]; subst. rewrite Forall_forall in A1, A2.
  (* each head is in the other list, and below everything in its own tail *)
  assert (a = b).
  { destruct (proj1 (Hx a) (or_introl eq_refl)) as [E|E], (proj2 (Hx b) (or_introl eq_refl)) as [E'|E']; try congruence.
    specialize (A1 _ E'). specialize (A2 _ E). lia. }
  subst b. f_equal. apply IH; auto. intros x. specialize (Hx x). cbn in Hx.
  split; intros Hi; [specialize (A1 _ Hi)|specialize (A2 _ Hi)]; intuition lia.
Qed.

Lemma filter_sorted f l : ssorted l -> ssorted (filter f l).
Proof.
  induction 1 as [|x l Hs IH Hall]; cbn; [constructor|].
  destruct (f x); [|exact IH]. constructor; [exact IH|].
  rewrite Forall_forall in *. intros y Hy. apply filter_In in Hy as [Hy _]. auto.
Qed.

Lemma sort_z_filter f l : NoDup l -> sort_z (filter f l) = filter f (sort_z l).
Proof.
  intros Hn. apply sorted_ext.
  - apply sort_z_sorted, NoDup_filter, Hn.
  - apply filter_sorted, sort_z_sorted, Hn.
  - intros x. rewrite sort_z_In, !filter_In, sort_z_In. reflexivity.
Qed.

Lemma s_mem_In x s : s_mem x s = true <-> In x s.
Proof.
  unfold s_mem. rewrite existsb_exists. split.
  - intros (y & Hy & E). apply Z.eqb_eq in E. congruence.
  - intros H. exists x. split; [exact H|apply Z.eqb_refl].
Qed.
Lemma s_add_spec x s : ssorted s -> ssorted (s_add x s) /\ (forall y, In y (s_add x s) <-> y = x \/ In y s).
Proof.
  intros Hs. unfold s_add. destruct (s_mem x s) eqn:E.
  - apply s_mem_In in E. split; [exact Hs|]. intros y. split; [auto|]. intros [->|H]; auto.
  - split.
    + apply insert_sorted_sorted; [exact Hs|]. intros H. apply s_mem_In in H. congruence.
    + intros y. apply insert_sorted_In.
Qed.
Lemma s_del_spec x s : ssorted s -> ssorted (s_del x s) /\ (forall y, In y (s_del x s) <-> In y s /\ y <> x).
Proof.
  intros Hs. split; [apply filter_sorted; exact Hs|]. intros y. unfold s_del. rewrite filter_In.
  split; intros [H1 H2]; split; auto; lia.
Qed.

Lemma s_add_del x s : ssorted s -> insert_sorted x (s_del x s) = s_add x s.
Proof.
  intros Hs. destruct (s_add_spec x s Hs) as [Ha Hm], (s_del_spec x s Hs) as [Hd Hn].
  apply sorted_ext; [apply insert_sorted_sorted; [exact Hd|rewrite Hn; tauto]|exact Ha|].
  intros y. rewrite insert_sorted_In, Hm, Hn. destruct (Z.eq_dec y x); tauto.
Qed.
