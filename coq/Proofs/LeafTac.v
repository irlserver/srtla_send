(** LeafTac.v — a syntax-insensitive closing tactic for the leaf equivalence lemmas (DESIGN §12.8):
    destruct record arguments, unfold everything down to integer/boolean/f64 primitives, split on every
    condition, close each branch by reflexivity / congruence / linear arithmetic.  [leaf_auto2], or a file's own
    variant put together from its parts ([cc_auto], [cls_auto], [reg_auto], [wire_auto]), closes a [leaf_*_ok]
    proof wherever a model function and its translation are compared case by case (in LeafStallP.v as the
    fallback of the proofs that go through the callees' lemmas), so that a meaning-preserving rewrite of the
    Rust body (operands swapped, condition negated with branches exchanged, a local renamed or inlined) does
    not break a lemma.  The parts below are in the order of their use; [leaf_open] and [leaf_auto2] at the end put
    them together.  The [2] in some names stands for nothing (there is no [leaf_auto]); DESIGN.md uses the names. *)
From Coq Require Import ZArith Bool Lia ZifyBool List Floats.
From Srtla Require Import Base.
From Srtla Require Select.
Local Open Scope Z_scope.

(* every argument that is a record, that is, of a type with one constructor (the [[idtac]]): an enum argument is
   left alone, a file with one splits it itself ([cc_enum], [reg_enum], [rg_enum]); the scalar types are skipped
   without trying *)
Ltac leaf_records :=
  repeat match goal with
         | x : ?T |- _ =>
             lazymatch T with
             | Z => fail | bool => fail | float => fail | option _ => fail | list _ => fail | forall _, _ => fail
             | _ => idtac
             end;
             lazymatch type of T with Prop => fail | _ => idtac end; destruct x; [idtac]
         end.

(* all that is done to a hypothesis: a conjunction is split, a projection of a destructed record argument is
   reduced ([cbn [p]] unfolds a constant [p] only where it meets a constructor), an equation substituted; model
   definitions in a hypothesis stay folded *)
Ltac leaf_hyps :=
  repeat match goal with
         | H : _ /\ _ |- _ => destruct H
         | H : context [?p ?r] |- _ => is_const p; progress cbn [p] in H
         end;
  subst.

(* shifts become powers of two; a [rewrite ?_] that finds nothing is slow on a big goal, so the goal is looked at first.
   [leaf_norm], [leaf_pows] and [leaf_flat] run once, before the case split, not inside a case. *)
Ltac leaf_norm :=
  try (lazymatch goal with |- context [Z.shiftl _ _] => idtac | |- context [Z.shiftr _ _] => idtac end;
       rewrite ?Z.shiftl_1_l, ?Z.shiftl_mul_pow2, ?Z.shiftr_div_pow2 by lia).

(* non-linear atoms (powers of two from shifts) with exponents equal whatever the conditions are made
   syntactically equal (for an exponent that a case decides see [leaf_close2]) *)
Ltac leaf_pows :=
  repeat match goal with
         | |- context [Z.pow 2 ?a] =>
             match goal with
             | |- context [Z.pow 2 ?b] => lazymatch a with b => fail | _ => replace b with a by lia end
             end
         end.

(* f64 atoms stay folded: comparisons / casts of an f64 *input* are opaque booleans / integers shared by both
   sides; casts of *closed* f64 terms are computed by [leaf_compute] once the conditions are split. *)
(* [lazy], not [cbv]: a projection of a record update must not evaluate the fields it drops (call-by-value
   copies every conditional of the updated record into each of its fields, exponentially in the nesting). *)
Ltac leaf_unfold2 :=
  lazy beta iota zeta delta -[Z.add Z.sub Z.mul Z.opp Z.leb Z.ltb Z.eqb Z.geb Z.gtb Z.max Z.min Z.div Z.modulo
                             Z.quot Z.rem Z.pow Z.shiftl Z.shiftr Z.land Z.lor negb andb orb Z.le Z.lt Z.ge Z.gt
                             Select.f64_as_u64 Select.f64_as_i32 Select.f64_of_i32 Select.f64_of_u64
                             Select.f64_max Select.f64_min
                             PrimFloat.ltb PrimFloat.leb PrimFloat.eqb PrimFloat.add PrimFloat.sub
                             PrimFloat.mul PrimFloat.div PrimFloat.opp].

Ltac leaf_no_cond b :=
  lazymatch b with
  | context [if _ then _ else _] => fail
  | context [match _ with Some _ => _ | None => _ end] => fail
  | _ => idtac
  end.
Ltac leaf_under_negb b k :=
  lazymatch b with negb ?c => leaf_under_negb c k | true => fail | false => fail | _ => k b end.

Ltac leaf_is_pos p := lazymatch p with xH => idtac | xO ?q => leaf_is_pos q | xI ?q => leaf_is_pos q end.
Ltac leaf_is_Zlit z := lazymatch z with Z0 => idtac | Zpos ?p => leaf_is_pos p | Zneg ?p => leaf_is_pos p end.
(* [t] mentions no variable of the context (a bound variable or an opaque constant passes); the condition of its
   first conditional is looked at first: it is small, and an open [t] mostly has a variable there already *)
Ltac leaf_closed t :=
  lazymatch t with context [if ?c then _ else _] => leaf_closed c | _ => idtac end;
  match t with context [?x] => is_var x; fail 1 | _ => idtac end.
Ltac leaf_simpl := cbn [negb andb orb]; lazy beta iota.
(* [t] is replaced by its value, if that is a literal *)
Ltac leaf_eval t :=
  let v := eval cbv in t in
  lazymatch v with true => idtac | false => idtac | _ => leaf_is_Zlit v end; change t with v.
(* Closed subterms are computed as soon as a split makes them closed, so that both sides carry the same
   conditions and a case is split once for both: f64 round trips of closed terms (computing an open one is
   expensive and useless), and any operation or comparison of two integer literals (bottom-up this is every
   closed integer term: [30 * 2 * 2], [500 <? 2^64 - 1]; the literals of these programs are not negative; a pair
   of literals fits the pattern too and is left alone by [leaf_eval], its value being no literal). *)
Ltac leaf_compute :=
  repeat (match goal with
          | |- context [Select.f64_as_i32 ?t] => leaf_closed t; leaf_eval (Select.f64_as_i32 t)
          | |- context [Select.f64_as_u64 ?t] => leaf_closed t; leaf_eval (Select.f64_as_u64 t)
          | |- context [?f (Zpos ?p) (Zpos ?q)] => leaf_eval (f (Zpos p) (Zpos q))
          | |- context [?f Z0 (Zpos ?q)] => leaf_eval (f Z0 (Zpos q))
          | |- context [?f (Zpos ?p) Z0] => leaf_eval (f (Zpos p) Z0)
          end; leaf_simpl).

(* a condition that decides nothing (both branches of the Rust `if` differed only in logging) *)
Lemma if_same {A} (c : bool) (x : A) : (if c then x else x) = x.
Proof. destruct c; reflexivity. Qed.

(* such conditions go, and chains of [&&] / [||] are bracketed to the left, whichever way they were written *)
Ltac leaf_flat :=
  repeat match goal with
         | |- context [if ?c then ?x else ?x] => rewrite (if_same c x)
         | |- context [?a && (?b && ?c)] => rewrite (andb_assoc a b c)
         | |- context [?a || (?b || ?c)] => rewrite (orb_assoc a b c)
         end.

(* innermost conditions first (a condition that itself contains a conditional is split after that one),
   and [negb c] is split on [c], so that [if c then a else b] and [if negb c then b else a] share the case;
   each split leaves its equation [Heqb : c = true / false] in the context *)
Ltac leaf_split2 :=
  repeat (match goal with
          | |- context [match ?x with Some _ => _ | None => _ end] => leaf_no_cond x; destruct x eqn:?
          | |- context [if ?b then _ else _] => leaf_no_cond b; leaf_under_negb b ltac:(fun c => destruct c eqn:?)
          end; leaf_simpl; leaf_compute).

(* [lia] reads the equations [Heqb : (a <=? b) = true] of the split through ZifyBool; a comparison of f64 values
   is an opaque boolean to it, which only [reflexivity] and [congruence] can use *)
Ltac leaf_eq2 :=
  lazymatch goal with
  | |- @eq Z _ _ => first [ reflexivity | lia ]
  | |- @eq bool _ _ => first [ reflexivity | lia | congruence ]
  | |- _ /\ _ => split; leaf_eq2
  | |- ?f _ = ?g _ => first [ reflexivity | (progress f_equal; leaf_eq2) | congruence ]
  | |- _ => first [ reflexivity | lia | congruence ]
  end.
(* when both sides took the same decisions the case closes by [reflexivity], possible or not; arithmetic is
   only asked where they were written differently, first for a contradiction among the conditions *)
Ltac leaf_close2 :=
  first [ solve [ repeat split; reflexivity ] | exfalso; lia | exfalso; congruence | leaf_eq2
        | (* last, a [min] / [max] in an exponent that one side wrote as a conditional: the case decides it, and
             [lia] needs to be shown, the exponent being under a non-linear atom *)
          progress repeat match goal with
                          | |- context [2 ^ ?f ?a ?b] =>
                              lazymatch f with Z.min => idtac | Z.max => idtac end;
                              first [ replace (f a b) with a by lia | replace (f a b) with b by lia ]
                          end;
          leaf_compute; leaf_eq2 ].

(* everything before the closing: one goal per combination of conditions, the path taken as hypotheses [Heqb*].
   [cbv beta zeta] first: [intros] would make a local definition of a statement's leading [let r' := .. in].
   [cbn [negb andb orb]]: [leaf_unfold2] keeps the three folded (an open [negb c] is what [leaf_split2] looks
   for); applied to [true] / [false] they are reduced here. *)
Ltac leaf_open :=
  cbv beta zeta; intros; leaf_records; leaf_hyps; leaf_unfold2; cbn [negb andb orb]; leaf_norm; leaf_pows;
  leaf_compute; leaf_flat; leaf_split2.

(* On failure the error is a bare "No applicable tactic" ([leaf_close2] on some case).  To see the case, write
   [leaf_open; try solve [leaf_close2]] instead: the goals left are the cases where the two sides differ. *)
Ltac leaf_auto2 := leaf_open; leaf_close2.
