(** LinkCcP.v — lemmas about the link-CC model: association-list plumbing, the shape of one
    [tick], arithmetic facts about the new target, invariants of a link and of the controller,
    the keys and the entries of the controller after [tick_all]. *)
From Coq Require Import Floats ZifyBool.
From Srtla Require Import Base BaseP Constants LinkCc.
From Srtla Require FConstants.

Local Open Scope Z_scope.

Lemma memZ_In (k : Z) (l : list Z) : memZ k l = true <-> In k l.
Proof.
  unfold memZ. rewrite existsb_exists. split.
  - intros [x [Hx E]]. assert (k = x) by lia. subst. exact Hx.
  - intro H. exists k. split; [exact H|apply Z.eqb_refl].
Qed.
Lemma memZ_false (k : Z) (l : list Z) : memZ k l = false <-> ~ In k l.
Proof. rewrite <- memZ_In. symmetry. apply not_true_iff_false. Qed.

Section Maps.
  Context {A : Type}.
  Implicit Types (m : list (Z * A)) (k : Z) (v d : A).

  Lemma lookup_upsert_same m k v : lookup (upsert m k v) k = Some v.
  Proof.
    induction m as [|[k' v'] m IH]; cbn; [rewrite Z.eqb_refl; reflexivity|].
    destruct (k =? k') eqn:E; cbn; [rewrite Z.eqb_refl; reflexivity|rewrite E; exact IH].
  Qed.

  Lemma lookup_upsert_other m k k2 v : k2 <> k -> lookup (upsert m k v) k2 = lookup m k2.
  Proof.
    intro Hne. induction m as [|[k' v'] m IH]; cbn.
    - destruct (k2 =? k) eqn:E; [lia|reflexivity].
    - destruct (k =? k') eqn:E; cbn.
      + assert (k = k') by lia; subst k'.
        destruct (k2 =? k) eqn:E2; [lia|reflexivity].
      + destruct (k2 =? k'); [reflexivity|exact IH].
  Qed.

  Lemma getd_upsert_same d m k v : getd d (upsert m k v) k = v.
  Proof. unfold getd. rewrite lookup_upsert_same. reflexivity. Qed.
  Lemma getd_upsert_other d m k k2 v : k2 <> k -> getd d (upsert m k v) k2 = getd d m k2.
  Proof. intro H. unfold getd. rewrite lookup_upsert_other by exact H. reflexivity. Qed.

  Lemma keys_upsert m k v :
    map fst (upsert m k v) = if memZ k (map fst m) then map fst m else map fst m ++ [k].
  Proof.
    induction m as [|[k' v'] m IH]; cbn; [reflexivity|].
    destruct (k =? k') eqn:E; cbn.
    - assert (k = k') by lia; subst. reflexivity.
    - rewrite IH. unfold memZ. destruct (existsb (Z.eqb k) (map fst m)); reflexivity.
  Qed.

  Lemma NoDup_keys_upsert m k v : NoDup (map fst m) -> NoDup (map fst (upsert m k v)).
  Proof.
    intro H. rewrite keys_upsert. destruct (memZ k (map fst m)) eqn:E; [exact H|].
    apply NoDup_snoc; [exact H|apply memZ_false, E].
  Qed.

  Lemma In_keys_upsert m k v k2 : In k2 (map fst (upsert m k v)) <-> k2 = k \/ In k2 (map fst m).
  Proof.
    rewrite keys_upsert. destruct (memZ k (map fst m)) eqn:E.
    - apply memZ_In in E. split; [auto|]. intros [->|H]; assumption.
    - rewrite in_app_iff. cbn. intuition.
  Qed.

  Lemma lookup_retain m (ids : list Z) k : memZ k ids = true -> lookup (retain m ids) k = lookup m k.
  Proof.
    intro Hk. induction m as [|[k' v'] m IH]; cbn; [reflexivity|].
    destruct (memZ k' ids) eqn:E; cbn.
    - destruct (k =? k'); [reflexivity|exact IH].
    - destruct (k =? k') eqn:E2; [|exact IH]. assert (k = k') by lia. congruence.
  Qed.
  Lemma getd_retain d m (ids : list Z) k : In k ids -> getd d (retain m ids) k = getd d m k.
  Proof. intro H. unfold getd. rewrite lookup_retain; [reflexivity|apply memZ_In; exact H]. Qed.

  Lemma keys_retain m (ids : list Z) : map fst (retain m ids) = filter (fun k => memZ k ids) (map fst m).
  Proof.
    unfold retain. induction m as [|[k' v'] m IH]; cbn; [reflexivity|].
    destruct (memZ k' ids); cbn; rewrite IH; reflexivity.
  Qed.

  Lemma In_retain m (ids : list Z) kv : In kv (retain m ids) -> In kv m.
  Proof. unfold retain. rewrite filter_In. tauto. Qed.

  Lemma In_upsert m k v kv : In kv (upsert m k v) -> kv = (k, v) \/ In kv m.
  Proof.
    induction m as [|[k' v'] m IH]; cbn.
    - intros [H|[]]; left; symmetry; exact H.
    - destruct (k =? k'); cbn; intros [H|H]; auto.
      destruct (IH H); auto.
  Qed.

  Lemma getd_In_or_default d m k : getd d m k = d \/ In (k, getd d m k) m.
  Proof.
    unfold getd. induction m as [|[k' v'] m IH]; cbn; [left; reflexivity|].
    destruct (k =? k') eqn:E.
    - right. left. f_equal. lia.
    - destruct IH; auto.
  Qed.
End Maps.

Lemma f64_to_u64_range x : 0 <= f64_to_u64 x <= u64_max.
Proof.
  assert (H64 : 0 <= u64_max) by discriminate.
  unfold f64_to_u64. destruct (Prim2SF x) as [s|[|]| |[|] m e]; try lia.
  assert (0 <= (if 0 <=? e then Z.pos m * 2 ^ e else Z.pos m / 2 ^ (- e))); [|lia].
  destruct (0 <=? e) eqn:E.
  - apply Z.mul_nonneg_nonneg; [lia|apply Z.pow_nonneg; lia].
  - apply Z.div_pos; [lia|apply Z.pow_pos_nonneg; lia].
Qed.

Lemma choose_state_not_bootstrap lh ld unc infl : choose_state lh ld unc infl <> Bootstrap.
Proof.
  unfold choose_state.
  destruct (lh && ld && negb unc); [discriminate|].
  destruct (f_le _ _); [discriminate|].
  destruct (f_lt _ _); discriminate.
Qed.

Definition new_target (c : core) (ns : cc_state) (md : climb_mode) (observed : Z) : Z :=
  let sane := sane_observed (c_target c) observed in
  clamp_target (next_target ns (c_state c) md (seed_target (c_seeded c) (c_target c) sane) sane).

Lemma tick_core_shape s observed now lewma :
  (rtt_invalid (k_rtt s) = true /\
   k_core (tick s observed now lewma) = mkCore Bootstrap Normal MIN_TARGET_BPS (c_fr_ticks (k_core s)) false)
  \/
  (rtt_invalid (k_rtt s) = false /\
   exists ns md fr, ns <> Bootstrap /\
     k_core (tick s observed now lewma) = mkCore ns md (new_target (k_core s) ns md observed) fr true /\
     (0 <= c_fr_ticks (k_core s) <= FAST_RECOVERY_TICKS -> 0 <= fr <= FAST_RECOVERY_TICKS)).
Proof.
  unfold tick. destruct (rtt_invalid (k_rtt s)) eqn:Ei.
  - left. split; reflexivity.
  - right. split; [reflexivity|].
    cbv zeta. cbn [k_core].
    match goal with |- context [choose_state ?a ?b ?c ?d] => set (ns := choose_state a b c d) end.
    match goal with |- context [mkCore ns ?m _ ?f true] => exists ns, m, f end.
    split; [apply choose_state_not_bootstrap|]. split; [reflexivity|].
    intro Hfr. unfold ssub, FAST_RECOVERY_TICKS in *.
    destruct (is_bo_or_drain _ && cc_state_eqb ns Climbing); destruct (cc_state_eqb ns Climbing); lia.
Qed.

Lemma tick_latch s observed now lewma :
  k_latch (tick s observed now lewma) =
  if rtt_invalid (k_rtt s) then k_latch s else update_loss_ewma (k_latch s) lewma now.
Proof. unfold tick. destruct (rtt_invalid (k_rtt s)); reflexivity. Qed.

Lemma tick_rtt s observed now lewma : k_rtt (tick s observed now lewma) = k_rtt s.
Proof. unfold tick. destruct (rtt_invalid (k_rtt s)); reflexivity. Qed.

Lemma tick_eff s observed now lewma :
  k_eff (tick s observed now lewma) =
  if rtt_invalid (k_rtt s) then k_eff s
  else update_backoff_efficacy (k_eff s) (c_state (k_core s))
         (LOSS_BACKOFF_PERMILLE <? loss_permille (evict_expired (k_win s) now))
         (loss_permille (evict_expired (k_win s) now)).
Proof. unfold tick. destruct (rtt_invalid (k_rtt s)); reflexivity. Qed.

Lemma tick_win s observed now lewma : k_win (tick s observed now lewma) = evict_expired (k_win s) now.
Proof. unfold tick. destruct (rtt_invalid (k_rtt s)); reflexivity. Qed.

Lemma rtt_invalid_zero r : r_ewma r = fzero -> rtt_invalid r = true.
Proof. intro H. unfold rtt_invalid. rewrite H. reflexivity. Qed.

Lemma link_step_rtt s now i : k_rtt (link_step s now i) = pre_tick_rtt s now i.
Proof. unfold link_step. rewrite tick_rtt. reflexivity. Qed.

Lemma link_step_latch s now i :
  k_latch (link_step s now i) =
  if rtt_invalid (pre_tick_rtt s now i) then k_latch s else update_loss_ewma (k_latch s) (i_lewma i) now.
Proof. unfold link_step. rewrite tick_latch. reflexivity. Qed.

Lemma link_step_shape s now i :
  (rtt_invalid (pre_tick_rtt s now i) = true /\
   k_core (link_step s now i) = mkCore Bootstrap Normal MIN_TARGET_BPS (c_fr_ticks (k_core s)) false)
  \/
  (rtt_invalid (pre_tick_rtt s now i) = false /\
   exists ns md fr, ns <> Bootstrap /\
     k_core (link_step s now i) = mkCore ns md (new_target (k_core s) ns md (observed_bps i)) fr true).
Proof.
  unfold link_step. set (s0 := mkLink _ _ _ _ _).
  destruct (tick_core_shape s0 (observed_bps i) now (i_lewma i)) as [H|[Ei (ns & md & fr & Hns & E & _)]];
    [left; exact H|right].
  split; [exact Ei|]. exists ns, md, fr. split; [exact Hns|exact E].
Qed.

Lemma update_loss_ewma_ewma l e now : l_ewma (update_loss_ewma l e now) = e.
Proof.
  unfold update_loss_ewma.
  destruct (f_lt _ e); [destruct (_ =? 0); [|destruct (_ <=? _)]|destruct (f_lt e _)]; reflexivity.
Qed.

Lemma update_loss_ewma_since l e now :
  l_high_since (update_loss_ewma l e now) =
  if f_lt FConstants.LOSS_DEGRADE_ENTER e then (if l_high_since l =? 0 then now else l_high_since l) else 0.
Proof.
  unfold update_loss_ewma.
  destruct (f_lt _ e); [destruct (_ =? 0); [|destruct (_ <=? _)]|destruct (f_lt e _)]; reflexivity.
Qed.

Lemma update_loss_ewma_degraded l e now :
  l_degraded (update_loss_ewma l e now) =
  if f_lt FConstants.LOSS_DEGRADE_ENTER e
  then l_degraded l || negb (l_high_since l =? 0) && (LOSS_DEGRADE_SUSTAIN_MS <=? ssub now (l_high_since l))
  else l_degraded l && negb (f_lt e FConstants.LOSS_DEGRADE_CLEAR).
Proof.
  unfold update_loss_ewma.
  destruct (f_lt _ e); [destruct (_ =? 0); [|destruct (_ <=? _)]|destruct (f_lt e _)];
    cbn; destruct (l_degraded l); reflexivity.
Qed.

Lemma target_bounds_ordered : MIN_TARGET_BPS <= MAX_TARGET_BPS.
Proof. discriminate. Qed.

Lemma clamp_target_range x : MIN_TARGET_BPS <= clamp_target x <= MAX_TARGET_BPS.
Proof. pose proof target_bounds_ordered. unfold clamp_target, clamp. lia. Qed.

Lemma clamp_target_id x : MIN_TARGET_BPS <= x <= MAX_TARGET_BPS -> clamp_target x = x.
Proof. unfold clamp_target, clamp. lia. Qed.

Lemma clamp_target_low x : x <= MAX_TARGET_BPS -> clamp_target x = Z.max MIN_TARGET_BPS x.
Proof. pose proof target_bounds_ordered. unfold clamp_target, clamp. lia. Qed.

Lemma clamp_target_between t x :
  MIN_TARGET_BPS <= t <= MAX_TARGET_BPS -> t <= x -> t <= clamp_target x <= x.
Proof. unfold clamp_target, clamp. lia. Qed.

Lemma permille_le x p : 0 <= x -> p <= 1000 -> x * p / 1000 <= x.
Proof.
  intros Hx Hp. apply Z.div_le_upper_bound; [reflexivity|].
  rewrite (Z.mul_comm 1000). apply Z.mul_le_mono_nonneg_l; assumption.
Qed.

Lemma step_permille_range md : 0 <= step_permille md <= HAI_STEP_PERMILLE.
Proof. destruct md; split; discriminate. Qed.

Lemma sane_observed_eq t observed :
  sane_observed t observed = Z.min observed (Z.max t INITIAL_TARGET_BPS * 4).
Proof.
  unfold sane_observed. change CC_OUTLIER_FACTOR_micro with (4 * 1000000).
  rewrite Z.mul_assoc, Z.div_mul by discriminate. reflexivity.
Qed.

Lemma sane_observed_le t observed : sane_observed t observed <= observed.
Proof. apply Z.le_min_l. Qed.

(** the baseline of the outlier clamp is at least the target, so below the target it does nothing *)
Lemma sane_observed_min t observed : Z.min (sane_observed t observed) t = Z.min observed t.
Proof. rewrite sane_observed_eq. unfold INITIAL_TARGET_BPS. lia. Qed.

Lemma climb_increment t s sane : 0 <= t -> 0 <= s ->
  let inc := Z.max (Z.min (t * s / 1000) (sane * 2 - t)) 0 in
  0 <= inc /\ inc * 1000 <= t * s /\ (0 < inc -> t + inc <= sane * 2).
Proof.
  intros Ht Hs. pose proof (Z.mul_div_le (t * s) 1000 eq_refl). pose proof (Z.mul_nonneg_nonneg t s Ht Hs).
  cbv zeta. lia.
Qed.

(** [ns] is the state the tick moves to, [c_state c] the state it leaves. *)
Lemma new_target_spec c ns md observed :
  c_seeded c = true -> MIN_TARGET_BPS <= c_target c <= MAX_TARGET_BPS ->
  let t := c_target c in let t' := new_target c ns md observed in
  match ns with
  | Bootstrap | Holding => t' = t
  | Climbing => t <= t' /\ t' * 1000 <= t * (1000 + step_permille md) /\ (t < t' -> t' <= 2 * observed)
  | BackingOff =>
      t' <= t /\ t' = Z.max MIN_TARGET_BPS (Z.max (t * BACKOFF_PERMILLE / 1000) (Z.min observed t))
  | Drain =>
      t' <= t /\ t' = if cc_state_eqb (c_state c) Drain then t
                      else Z.max MIN_TARGET_BPS (t * DRAIN_PERMILLE / 1000)
  end.
Proof.
  intros Hs Ht. cbv zeta. unfold new_target, seed_target. rewrite Hs. cbn [negb].
  set (t := c_target c) in *. set (sane := sane_observed t observed).
  assert (Ht0 : 0 <= t) by (unfold MIN_TARGET_BPS in Ht; lia).
  pose proof (step_permille_range md) as Hmd.
  destruct ns; cbn [next_target].
  - apply clamp_target_id, Ht.
  - assert (Hkeep : t <= t /\ t * 1000 <= t * (1000 + step_permille md) /\ (t < t -> t <= 2 * observed)).
    { pose proof (Z.mul_nonneg_nonneg t (step_permille md) Ht0 (proj1 Hmd)). lia. }
    destruct (0 <? sane); [|rewrite clamp_target_id by exact Ht; exact Hkeep].
    rewrite (Z.max_l t MIN_TARGET_BPS) by apply Ht.
    destruct (climb_increment t (step_permille md) sane Ht0 (proj1 Hmd)) as (I0 & I1 & I2).
    cbv zeta in I0, I1, I2. set (inc := Z.max _ 0) in *.
    destruct (clamp_target_between t (t + inc) Ht) as [L U]; [lia|].
    pose proof (sane_observed_le t observed). fold sane in H. lia.
  - apply clamp_target_id, Ht.
  - pose proof (permille_le t BACKOFF_PERMILLE Ht0 ltac:(discriminate)).
    unfold sane. rewrite sane_observed_min, clamp_target_low; lia.
  - destruct (cc_state_eqb (c_state c) Drain); cbn [negb]; [rewrite clamp_target_id by exact Ht; lia|].
    pose proof (permille_le t DRAIN_PERMILLE Ht0 ltac:(discriminate)).
    rewrite clamp_target_low; lia.
Qed.

(** The cases are those of the state after the step. *)
Lemma link_step_target_spec s now i :
  c_seeded (k_core s) = true -> MIN_TARGET_BPS <= c_target (k_core s) <= MAX_TARGET_BPS ->
  let c' := k_core (link_step s now i) in
  let t := c_target (k_core s) in let t' := c_target c' in let obs := observed_bps i in
  match c_state c' with
  | Bootstrap => t' = MIN_TARGET_BPS /\ rtt_invalid (pre_tick_rtt s now i) = true
  | Holding => t' = t
  | Climbing => t <= t' /\ t' * 1000 <= t * (1000 + step_permille (c_mode c')) /\ (t < t' -> t' <= 2 * obs)
  | BackingOff =>
      t' <= t /\ t' = Z.max MIN_TARGET_BPS (Z.max (t * BACKOFF_PERMILLE / 1000) (Z.min obs t))
  | Drain =>
      t' <= t /\ t' = if cc_state_eqb (c_state (k_core s)) Drain then t
                      else Z.max MIN_TARGET_BPS (t * DRAIN_PERMILLE / 1000)
  end.
Proof.
  intros Hs Ht. cbv zeta.
  destruct (link_step_shape s now i) as [(Ei & Ec)|(_ & ns & md & fr & Hns & Ec)];
    rewrite Ec; cbn [c_state c_target c_mode].
  - split; [reflexivity|exact Ei].
  - pose proof (new_target_spec (k_core s) ns md (observed_bps i) Hs Ht) as H.
    destruct ns; [contradiction|..]; exact H.
Qed.

Definition core_inv (c : core) : Prop :=
  MIN_TARGET_BPS <= c_target c <= MAX_TARGET_BPS /\
  (c_state c = Bootstrap -> c_target c = MIN_TARGET_BPS /\ c_seeded c = false) /\
  (c_state c <> Bootstrap -> c_seeded c = true) /\
  0 <= c_fr_ticks c <= FAST_RECOVERY_TICKS.

Lemma core_inv_default : core_inv (k_core link_default).
Proof.
  unfold core_inv, link_default, MIN_TARGET_BPS, MAX_TARGET_BPS, FAST_RECOVERY_TICKS. cbn.
  repeat split; try lia; intro H; congruence.
Qed.

Lemma unseeded_bootstrap c : core_inv c -> c_seeded c = false -> c_state c = Bootstrap.
Proof.
  intros (_ & _ & Hn & _) Hf.
  destruct (c_state c); [reflexivity|..]; rewrite Hn in Hf by discriminate; discriminate Hf.
Qed.

Lemma bootstrap_floor c : core_inv c -> c_state c = Bootstrap -> c_target c = MIN_TARGET_BPS.
Proof. intros (_ & Hb & _) H. apply Hb, H. Qed.

Lemma seeded_iff c : core_inv c -> (c_seeded c = true <-> c_state c <> Bootstrap).
Proof.
  intros (_ & Hb & Hn & _). split; [|exact Hn].
  intros Hs Hc. destruct (Hb Hc) as [_ Hf]. congruence.
Qed.

Lemma core_inv_tick s observed now lewma :
  core_inv (k_core s) -> core_inv (k_core (tick s observed now lewma)).
Proof.
  intros (Ht & Hb & Hn & Hfr).
  destruct (tick_core_shape s observed now lewma) as [[_ E]|[_ (ns & md & fr & Hns & E & Hf)]]; rewrite E.
  - unfold core_inv. cbn [c_target c_state c_seeded c_fr_ticks].
    split; [split; [reflexivity|apply target_bounds_ordered]|]. split; [intro; split; reflexivity|]. split; [intro H; congruence|exact Hfr].
  - unfold core_inv. cbn [c_target c_state c_seeded c_fr_ticks].
    split; [apply clamp_target_range|]. split; [intro Hc; contradiction|].
    split; [intro; reflexivity|apply Hf; exact Hfr].
Qed.

Lemma core_inv_step s now i : core_inv (k_core s) -> core_inv (k_core (link_step s now i)).
Proof. intro H. unfold link_step. apply core_inv_tick. exact H. Qed.

(** counters that the Rust code increments with [+= 1] stay small (no u32 overflow) *)
Definition eff_inv (e : eff) : Prop :=
  0 <= e_ticks e <= BACKOFF_EFFICACY_TICKS /\ 0 <= e_unc_ticks e < LOSS_UNCONGESTIVE_RETEST_TICKS /\
  (e_unc e = false -> e_ticks e < BACKOFF_EFFICACY_TICKS).

Ltac eff_solve :=
  cbn [e_ticks e_unc_ticks e_unc e_entry_pm];
  unfold BACKOFF_EFFICACY_TICKS, LOSS_UNCONGESTIVE_RETEST_TICKS in *;
  split; [lia|split; [lia|let Hx := fresh in intro Hx; try discriminate Hx; try lia]].

Lemma eff_inv_update e st lh pm : eff_inv e -> eff_inv (update_backoff_efficacy e st lh pm).
Proof.
  intros (H1 & H2 & H3). unfold update_backoff_efficacy, eff_inv.
  destruct lh; cbn [negb]; [|eff_solve].
  destruct (e_unc e) eqn:Eu.
  - destruct (LOSS_UNCONGESTIVE_RETEST_TICKS <=? e_unc_ticks e + 1) eqn:E; eff_solve.
  - specialize (H3 eq_refl).
    destruct (negb (cc_state_eqb st BackingOff)); [eff_solve|].
    destruct (e_ticks e + 1 <? BACKOFF_EFFICACY_TICKS) eqn:E; [eff_solve|].
    destruct (pm * 1000 <? _); eff_solve.
Qed.

Lemma eff_inv_step s now i : eff_inv (k_eff s) -> eff_inv (k_eff (link_step s now i)).
Proof.
  intro H. unfold link_step. rewrite tick_eff. cbn [k_rtt k_eff k_core k_win].
  destruct (rtt_invalid _); [exact H|]. apply eff_inv_update. exact H.
Qed.

Definition sample_ok (x : loss_sample) : Prop := 0 <= ls_lost x /\ 0 <= ls_sent x.
Definition win_inv (w : loss_win) : Prop :=
  0 <= w_lost w <= u32_max /\ 0 <= w_sent w <= u32_max /\ Forall sample_ok (w_samples w).

Lemma evict_samples_range l cutoff sent lost :
  Forall sample_ok l -> 0 <= sent <= u32_max -> 0 <= lost <= u32_max ->
  let '(l2, s', l') := evict_samples l cutoff sent lost in
  0 <= s' <= u32_max /\ 0 <= l' <= u32_max /\ Forall sample_ok l2.
Proof.
  revert sent lost. induction l as [|x l IH]; intros sent lost Hf Hs Hl; cbn; [tauto|].
  destruct (ls_ts x <? cutoff); [|tauto].
  inversion Hf as [|? ? [Hx1 Hx2] Hf']; subst.
  apply IH; [exact Hf'| |]; unfold ssub; unfold u32_max, two32 in *; lia.
Qed.

Lemma win_inv_evict w now : win_inv w -> win_inv (evict_expired w now).
Proof.
  intros (H1 & H2 & H3). unfold evict_expired.
  pose proof (evict_samples_range (w_samples w) (ssub now LOSS_WINDOW_MS) (w_sent w) (w_lost w) H3 H2 H1) as H.
  destruct (evict_samples _ _ _ _) as [[l s'] l']. unfold win_inv. cbn. tauto.
Qed.

Lemma win_inv_record w sent lost now :
  win_inv w -> 0 <= sent -> 0 <= lost -> win_inv (record_loss w sent lost now).
Proof.
  intros (H1 & H2 & H3) Hs Hl. unfold record_loss. apply win_inv_evict. unfold win_inv, sat_u32, clamp. cbn.
  split; [unfold u32_max, two32; lia|]. split; [unfold u32_max, two32; lia|].
  apply Forall_app. split; [exact H3|]. constructor; [split; assumption|constructor].
Qed.

Lemma win_inv_observe w bytes nak now : win_inv w -> win_inv (observe_traffic w bytes nak now).
Proof.
  intro H. unfold observe_traffic.
  destruct (negb (w_baseline w)); [exact H|].
  destruct (_ && _); [exact H|]. apply win_inv_record; [exact H| |lia].
  assert (0 <= ssub bytes (w_prev_bytes w) / ASSUMED_SRT_PAYLOAD_BYTES).
  { apply Z.div_pos; [unfold ssub; lia|reflexivity]. }
  unfold u32_max, two32. destruct (0 <? _); lia.
Qed.

Lemma win_inv_step s now i : win_inv (k_win s) -> win_inv (k_win (link_step s now i)).
Proof.
  intro H. unfold link_step. rewrite tick_win. cbn [k_win].
  apply win_inv_evict, win_inv_observe, H.
Qed.

Definition link_inv (s : link) : Prop := core_inv (k_core s) /\ eff_inv (k_eff s) /\ win_inv (k_win s).

Lemma link_inv_default : link_inv link_default.
Proof.
  split; [apply core_inv_default|]. split.
  - unfold eff_inv, BACKOFF_EFFICACY_TICKS, LOSS_UNCONGESTIVE_RETEST_TICKS; cbn; repeat split; lia.
  - unfold win_inv; cbn; unfold u32_max, two32; repeat split; try lia. constructor.
Qed.

Lemma link_inv_step s now i : link_inv s -> link_inv (link_step s now i).
Proof.
  intros (H1 & H2 & H3). split; [apply core_inv_step, H1|].
  split; [apply eff_inv_step, H2|apply win_inv_step, H3].
Qed.

Definition ctrl_all (P : link -> Prop) (c : ctrl) : Prop := forall k s, In (k, s) c -> P s.

Lemma getd_all (P : link -> Prop) c k : P link_default -> ctrl_all P c -> P (getd link_default c k).
Proof.
  intros Hd Hc. destruct (getd_In_or_default link_default c k) as [E|Hi]; [rewrite E; exact Hd|].
  eapply Hc; exact Hi.
Qed.

(** [Q] is whatever the step needs to know of the inputs of this tick *)
Lemma ctrl_all_tick_links (P : link -> Prop) (Q : inp -> Prop) now :
  P link_default -> (forall s i, Q i -> P s -> P (link_step s now i)) ->
  forall inps c, (forall i, In i inps -> Q i) -> ctrl_all P c -> ctrl_all P (tick_links c now inps).
Proof.
  intros Hd Hs. induction inps as [|i t IH]; intros c HQ Hc; cbn; [exact Hc|].
  apply IH; [intros j Hj; apply HQ; right; exact Hj|].
  intros k s Hin. apply In_upsert in Hin. destruct Hin as [E|Hin]; [|eapply Hc; exact Hin].
  inversion E; subst. apply Hs; [apply HQ; left; reflexivity|apply getd_all; assumption].
Qed.

Lemma ctrl_all_tick_all (P : link -> Prop) (Q : inp -> Prop) now inps c :
  P link_default -> (forall s i, Q i -> P s -> P (link_step s now i)) ->
  (forall i, In i inps -> Q i) -> ctrl_all P c -> ctrl_all P (tick_all c now inps).
Proof.
  intros Hd Hs HQ Hc k s Hin. unfold tick_all in Hin. apply In_retain in Hin.
  eapply ctrl_all_tick_links; eauto.
Qed.

Lemma keys_tick_links now inps : forall c k,
  In k (map fst (tick_links c now inps)) <-> In k (map i_id inps) \/ In k (map fst c).
Proof.
  induction inps as [|i t IH]; intros c k; cbn; [tauto|].
  rewrite IH, In_keys_upsert. intuition.
Qed.

Lemma NoDup_keys_tick_links now inps : forall c,
  NoDup (map fst c) -> NoDup (map fst (tick_links c now inps)).
Proof.
  induction inps as [|i t IH]; intros c H; cbn; [exact H|].
  apply IH, NoDup_keys_upsert, H.
Qed.

Lemma keys_tick_all c now inps k :
  In k (map fst (tick_all c now inps)) <-> In k (map i_id inps).
Proof.
  unfold tick_all. rewrite keys_retain, filter_In, keys_tick_links, memZ_In. tauto.
Qed.

Lemma NoDup_keys_tick_all c now inps :
  NoDup (map fst c) -> NoDup (map fst (tick_all c now inps)).
Proof.
  intro H. unfold tick_all. rewrite keys_retain. apply NoDup_filter, NoDup_keys_tick_links, H.
Qed.

Lemma tick_links_getd_notin now inps : forall c k,
  ~ In k (map i_id inps) -> getd link_default (tick_links c now inps) k = getd link_default c k.
Proof.
  induction inps as [|i t IH]; intros c k Hk; cbn; [reflexivity|].
  cbn in Hk. rewrite IH by tauto. apply getd_upsert_other. intro E. apply Hk. left. congruence.
Qed.

Lemma tick_links_getd_in now inps : forall c i,
  NoDup (map i_id inps) -> In i inps ->
  getd link_default (tick_links c now inps) (i_id i) = link_step (getd link_default c (i_id i)) now i.
Proof.
  induction inps as [|j t IH]; intros c i Hnd Hin; [contradiction|].
  cbn in Hnd. inversion Hnd as [|? ? Hj Hnd']; subst. cbn.
  destruct Hin as [->|Hin].
  - rewrite tick_links_getd_notin by exact Hj. apply getd_upsert_same.
  - rewrite IH by assumption. f_equal. apply getd_upsert_other.
    intro E. apply Hj. rewrite <- E. apply in_map. exact Hin.
Qed.

Lemma tick_all_getd_in c now inps i :
  NoDup (map i_id inps) -> In i inps ->
  getd link_default (tick_all c now inps) (i_id i) = link_step (getd link_default c (i_id i)) now i.
Proof.
  intros Hnd Hin. unfold tick_all. rewrite getd_retain by (apply in_map; exact Hin).
  apply tick_links_getd_in; assumption.
Qed.
