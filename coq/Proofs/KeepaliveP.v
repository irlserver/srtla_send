(** KeepaliveP.v — lemmas about Model/Keepalive.v: the keepalive frame (through the proved
    Wire round trip), the effects of keepalive_packet, a case analysis of one housekeeping
    iteration, freshness of the last keepalive on a live link, the link-side effects
    of an uplink datagram, and the model's own [upd]. *)
From Coq Require Import Floats ZifyBool.
From Srtla Require Import Base Constants FConstants Wire WireSpec WireP BaseP Rtt Keepalive RttP.
Local Open Scope Z_scope.

Lemma idle_ms_1000 : IDLE_MS = 1000.
Proof. reflexivity. Qed.

Definition i32_range (x : Z) : Prop := i32_min <= x <= i32_max.
Definition tele_ok (t : tele) : Prop :=
  i32_range (t_window t) /\ i32_range (t_inflight t) /\ i32_range (t_nak t).

Lemma tele0_ok : tele_ok tele0.
Proof. cbv. intuition congruence. Qed.

Lemma ka_info_ok l t : tele_ok t -> info_ok (ka_info l t).
Proof.
  intros (Hw & Hf & Hn). unfold ka_info, info_ok.
  pose proof (f_as_u32_range (kx (r_k (l_rtt l)))).
  pose proof (f_as_u32_range (t_bps t / F_EIGHT)%float).
  unfold i32_range in *. unfold of_i32, two32 in *. repeat split; try lia.
Qed.

Lemma keepalive_packet_frame l t now : tele_ok t -> 0 <= now < two64 ->
  let p := fst (keepalive_packet l t now) in
  blen p = 38 /\ firstn 10 p = create_keepalive_packet now /\
  extract_keepalive_timestamp p = Ok (Some now) /\
  extract_keepalive_conn_info p = Ok (Some (ka_info l t)).
Proof.
  intros Ht Hn. unfold keepalive_packet. cbn [fst].
  exact (ka_ext_roundtrip (ka_info l t) now (ka_info_ok l t Ht) Hn).
Qed.

Lemma keepalive_packet_type l t now :
  spec_type (fst (keepalive_packet l t now)) = Some SRTLA_TYPE_KEEPALIVE.
Proof.
  unfold keepalive_packet, ka_info, create_keepalive_packet_ext. cbn [fst].
  change (be_bytes 2 SRTLA_TYPE_KEEPALIVE) with [144; 0]. reflexivity.
Qed.

Lemma keepalive_packet_state l t now :
  let l' := snd (keepalive_packet l t now) in
  l_last_ka l' = Some now /\ rtt_core (l_rtt l') = rtt_core (l_rtt l) /\
  l_connected l' = l_connected l /\ l_id l' = l_id l /\ l_estab l' = l_estab l /\
  l_last_recv l' = l_last_recv l /\ l_timeout l' = l_timeout l /\
  (r_waiting (l_rtt l) = true -> l_rtt l' = l_rtt l) /\
  (r_waiting (l_rtt l') = true ->
     r_waiting (l_rtt l) = true \/ r_ka_sent_ms (l_rtt l') = now).
Proof.
  unfold keepalive_packet. cbn [snd l_last_ka l_rtt l_connected l_id l_estab l_last_recv l_timeout].
  split; [reflexivity|]. split; [destruct (negb _ && _); reflexivity|].
  do 5 (split; [reflexivity|]).
  split.
  - intros Hw. rewrite Hw. reflexivity.
  - destruct (r_waiting (l_rtt l)) eqn:Ew; [auto|]. cbn [negb andb].
    destruct (_ || _); cbn; intros; auto; congruence.
Qed.

Definition ka_frame_of (l : link) (t : tele) (now : Z) (f : frame) : Prop :=
  exists l0, l_id l0 = l_id l /\ r_k (l_rtt l0) = r_k (l_rtt l) /\
             f = FBytes (fst (keepalive_packet l0 t now)).

(** One conditional send of the live branch, on an intermediate link [l0] that still has
    the id and Kalman state of the link [l] the iteration started from. *)
Lemma send_if (c : bool) l0 l t now : l_id l0 = l_id l -> r_k (l_rtt l0) = r_k (l_rtt l) ->
  let '(f, l1) := if c then let '(p, l') := keepalive_packet l0 t now in ([FBytes p], l')
                  else ([], l0) in
  Forall (ka_frame_of l t now) f /\ l_id l1 = l_id l /\ rtt_core (l_rtt l1) = rtt_core (l_rtt l0) /\
  (if c then f <> [] /\ l_last_ka l1 = Some now else f = [] /\ l1 = l0).
Proof.
  intros Hi Hk. destruct c; [|repeat split; auto].
  pose proof (keepalive_packet_state l0 t now) as S.
  destruct (keepalive_packet l0 t now) as [p l1] eqn:E. cbn [snd] in S.
  destruct S as (Hka & Hr & _ & Hid & _). repeat split; auto; try congruence.
  constructor; [|constructor]. exists l0. rewrite E. auto.
Qed.

Lemma tick_link_cases l t rc now :
  let '(fs, l') := tick_link l t rc now in
  (is_timed_out l now = true /\ fs = [REG2_FRAME] /\
     (l_last_ka l' = l_last_ka l \/ l_last_ka l' = None) /\
     (l_rtt l' = rtt_default \/ rtt_core (l_rtt l') = rtt_core (l_rtt l)))
  \/ (is_timed_out l now = true /\ fs = [] /\ l' = l)
  \/ (is_timed_out l now = false /\ fs = [] /\ l' = l /\ needs_keepalive l now = false)
  \/ (is_timed_out l now = false /\ l_connected l = true /\ fs <> [] /\
      Forall (ka_frame_of l t now) fs /\ l_last_ka l' = Some now /\
      rtt_core (l_rtt l') = rtt_core (l_rtt l)).
Proof.
  unfold tick_link. destruct (is_timed_out l now) eqn:Eto.
  - destruct (should_attempt_reconnect l now).
    + left. split; [reflexivity|]. split; [reflexivity|].
      destruct rc; cbn [reconnect_ok mark_for_recovery record_attempt l_last_ka l_rtt]; auto.
    + right; left. auto.
  - (* either condition holding means the link is connected *)
    assert (Hc : needs_keepalive l now || needs_rtt_measurement l now = true -> l_connected l = true).
    { unfold needs_keepalive, needs_rtt_measurement, needs_measurement.
      destruct (l_connected l); [reflexivity|]. destruct (l_estab l =? 0); discriminate. }
    pose proof (send_if (needs_keepalive l now) l l t now eq_refl eq_refl) as S1.
    destruct (if needs_keepalive l now then _ else _) as [f1 l1].
    destruct S1 as (F1 & I1 & R1 & K1).
    pose proof (send_if (needs_rtt_measurement l1 now) l1 l t now I1 (f_equal snd R1)) as S2.
    destruct (if needs_rtt_measurement l1 now then _ else _) as [f2 l2].
    destruct S2 as (F2 & _ & R2 & K2). right; right.
    assert (Hf : Forall (ka_frame_of l t now) (f1 ++ f2)) by (apply Forall_app; auto).
    assert (Hr : rtt_core (l_rtt l2) = rtt_core (l_rtt l)) by congruence.
    destruct (needs_keepalive l now) eqn:Ek; destruct K1 as [N1 K1].
    + (* the keepalive went out; a probe after it stamps [now] again *)
      right. specialize (Hc eq_refl).
      assert (Hne : f1 ++ f2 <> []) by (destruct f1; [congruence|discriminate]).
      destruct (needs_rtt_measurement l1 now); destruct K2 as [N2 K2]; subst; auto 7.
    + subst f1 l1. destruct (needs_rtt_measurement l now) eqn:Em; destruct K2 as [N2 K2]; subst.
      * right. specialize (Hc eq_refl). auto 7.
      * left. auto.
Qed.

Lemma tick_link_frames l t rc now :
  Forall (fun f => f = REG2_FRAME \/ ka_frame_of l t now f) (fst (tick_link l t rc now)).
Proof.
  pose proof (tick_link_cases l t rc now) as H. destruct (tick_link l t rc now) as [fs l']. cbn [fst].
  destruct H as [(_ & -> & _)|[(_ & -> & _)|[(_ & -> & _)|(_ & _ & _ & Hf & _)]]]; auto.
  eapply Forall_impl; [|exact Hf]. auto.
Qed.
Lemma tick_link_core l t rc now :
  let l' := snd (tick_link l t rc now) in
  l_rtt l' = rtt_default \/ rtt_core (l_rtt l') = rtt_core (l_rtt l).
Proof.
  pose proof (tick_link_cases l t rc now) as H. destruct (tick_link l t rc now) as [fs l']. cbn [snd].
  destruct H as [(_ & _ & _ & H)|[(_ & _ & ->)|[(_ & _ & -> & _)|(_ & _ & _ & _ & _ & H)]]]; auto.
Qed.

Definition live (l : link) (now : Z) : bool := l_connected l && negb (silent_too_long l now).

Lemma live_iff l now : live l now = true <-> is_timed_out l now = false /\ l_connected l = true.
Proof.
  unfold live, is_timed_out. destruct (l_connected l); cbn [andb negb]; [|intuition discriminate].
  destruct (silent_too_long l now); intuition discriminate.
Qed.

Lemma not_live_no_ka l t rc now : live l now = false ->
  let '(fs, l') := tick_link l t rc now in
  (fs = [] \/ fs = [REG2_FRAME]) /\ (l_last_ka l' = l_last_ka l \/ l_last_ka l' = None).
Proof.
  intros Hl. pose proof (tick_link_cases l t rc now) as H.
  destruct (tick_link l t rc now) as [fs l'].
  destruct H as [(_ & -> & H & _)|[(_ & -> & ->)|[(_ & -> & -> & _)|(Hto & Hc & _)]]]; auto.
  rewrite (proj2 (live_iff l now) (conj Hto Hc)) in Hl. discriminate.
Qed.

(** C14 cadence, state level: after a tick on a live link the last keepalive on it is
    younger than IDLE_TIME, and it is this tick's iff a frame went out. *)
Lemma keepalive_fresh l t rc now : live l now = true ->
  let '(fs, l') := tick_link l t rc now in
  exists k, l_last_ka l' = Some k /\ now - k < IDLE_MS /\
            ((fs <> [] /\ k = now /\ Forall (ka_frame_of l t now) fs) \/
             (fs = [] /\ l' = l)).
Proof.
  intros Hl. destruct (proj1 (live_iff l now) Hl) as [Hto Hc].
  pose proof (tick_link_cases l t rc now) as H.
  destruct (tick_link l t rc now) as [fs l'].
  destruct H as [(H & _)|[(H & _)|[(_ & -> & -> & Hk)|(_ & _ & Hne & Hf & Hka & _)]]];
    try congruence.
  - unfold needs_keepalive in Hk. rewrite Hc in Hk. cbn [negb] in Hk.
    destruct (l_last_ka l) as [k|] eqn:Ek; [|discriminate].
    exists k. unfold ssub in Hk. repeat split; auto. lia.
  - exists now. pose proof idle_ms_1000. repeat split; auto. lia.
Qed.

Lemma cadence_two_ticks D l1 t1 rc1 tau1 l2 t2 rc2 tau2 :
  0 <= D -> live l1 tau1 = true -> live l2 tau2 = true -> tau2 - tau1 <= D ->
  (l_last_ka l2 = l_last_ka (snd (tick_link l1 t1 rc1 tau1)) \/ l_last_ka l2 = None) ->
  exists k1 k2,
    l_last_ka (snd (tick_link l1 t1 rc1 tau1)) = Some k1 /\
    l_last_ka (snd (tick_link l2 t2 rc2 tau2)) = Some k2 /\
    tau1 - k1 < IDLE_MS /\ tau2 - k2 < IDLE_MS /\
    k2 - k1 < IDLE_MS + D /\
    ((fst (tick_link l2 t2 rc2 tau2) = [] /\ k2 = k1) \/
     (fst (tick_link l2 t2 rc2 tau2) <> [] /\ k2 = tau2)).
Proof.
  intros HD L1 L2 Hd Hb. pose proof idle_ms_1000 as HI.
  pose proof (keepalive_fresh l1 t1 rc1 tau1 L1) as H1.
  pose proof (keepalive_fresh l2 t2 rc2 tau2 L2) as H2.
  destruct (tick_link l1 t1 rc1 tau1) as [fs1 l1']. destruct (tick_link l2 t2 rc2 tau2) as [fs2 l2'].
  cbn [fst snd] in *.
  destruct H1 as (k1 & Hk1 & Hl1 & _). destruct H2 as (k2 & Hk2 & Hl2 & Hc).
  exists k1, k2. destruct Hc as [(Hne & -> & _)|(-> & ->)].
  - repeat split; auto. lia.
  - (* nothing sent at the second tick: its last keepalive is still the first tick's *)
    assert (k2 = k1) by (destruct Hb as [Hb|Hb]; rewrite Hb in Hk2; congruence). subst k2.
    repeat split; auto. lia.
Qed.

Lemma tick_frames l t rc now : tele_ok t -> 0 <= now < two64 ->
  Forall (fun f => f = REG2_FRAME \/
            exists p, f = FBytes p /\ blen p = 38 /\ firstn 10 p = create_keepalive_packet now /\
              extract_keepalive_timestamp p = Ok (Some now) /\
              exists rtt_field,
                extract_keepalive_conn_info p =
                  Ok (Some [l_id l mod two32; t_window t; t_inflight t; rtt_field; of_i32 (t_nak t);
                            f_as_u32 (t_bps t / F_EIGHT)%float]))
         (fst (tick_link l t rc now)).
Proof.
  intros Ht Hn. eapply Forall_impl; [|apply tick_link_frames].
  intros f [->|(l0 & Hid & _ & ->)]; [left; reflexivity|right].
  destruct (keepalive_packet_frame l0 t now Ht Hn) as (A & B & C & E).
  eexists. split; [reflexivity|]. repeat split; auto.
  eexists. rewrite E. unfold ka_info. rewrite Hid. reflexivity.
Qed.

Lemma pkt_link_last_ka l b now : l_last_ka (pkt_link l b now) = l_last_ka l.
Proof.
  unfold pkt_link. destruct (ptype b) as [pt|]; [|reflexivity].
  destruct (_ || _); [reflexivity|]. destruct (pt =? SRTLA_TYPE_REG3); [reflexivity|].
  destruct (pt =? SRTLA_TYPE_REG_ERR); [reflexivity|].
  destruct (pt =? SRTLA_TYPE_KEEPALIVE); [|reflexivity].
  destruct (handle_keepalive_response (l_rtt l) b now) as [r [s|]]; reflexivity.
Qed.

(** the estimator moves only through handle_keepalive_response on a keepalive-typed
    datagram, i.e. only in the sample case of [hkr_cases] *)
Lemma pkt_link_sample l b now : bytes_ok b ->
  rtt_core (l_rtt (pkt_link l b now)) <> rtt_core (l_rtt l) ->
  r_waiting (l_rtt l) = true /\ spec_type b = Some SRTLA_TYPE_KEEPALIVE /\ 10 <= blen b /\
  exists ts, spec_ka_ts b = Some ts /\ 0 < now - ts <= 10000 /\
    l_rtt (pkt_link l b now) = set_waiting (update_estimate (l_rtt l) (now - ts) now) false /\
    l_proof (pkt_link l b now) = now.
Proof.
  intros Hb. unfold pkt_link. destruct (ptype b) as [pt|]; [|congruence].
  destruct (_ || _); [congruence|]. destruct (pt =? SRTLA_TYPE_REG3); [cbn; congruence|].
  destruct (pt =? SRTLA_TYPE_REG_ERR); [cbn; congruence|].
  destruct (pt =? SRTLA_TYPE_KEEPALIVE); [|cbn; congruence].
  pose proof (hkr_cases (l_rtt l) b now) as H.
  destruct (handle_keepalive_response (l_rtt l) b now) as [r s].
  destruct H as [(-> & Hc & _)|(ts & -> & Hw & Hts & Hr & ->)];
    cbn [set_recv_rtt_proof l_rtt l_proof]; [congruence|]. intros _. split; [exact Hw|].
  rewrite (ka_ts_spec b Hb) in Hts. destruct (spec_ka_ts_some b ts Hts) as [Hty Hlen].
  split; [exact Hty|]. split; [exact Hlen|]. exists ts. change KA_RTT_CAP_MS with 10000 in Hr.
  replace (ssub now ts) with (now - ts) by (unfold ssub; lia). repeat split; auto; lia.
Qed.

Lemma mark_core l : rtt_core (l_rtt (mark_for_recovery l)) = rtt_core (l_rtt l).
Proof. reflexivity. Qed.

(** [Keepalive.upd] takes the list first and recurs on it: it is not [Conn.upd], so the lemmas of
    ConnP.v do not apply *)
Lemma nth_upd {A} (f : A -> A) : forall s i l, nth_error s i = Some l -> nth_error (upd s i f) i = Some (f l).
Proof.
  induction s as [|x s IH]; intros [|i] l H; cbn in *; try discriminate.
  - inversion H. reflexivity.
  - apply IH. exact H.
Qed.
