(** C14P.v — every trace of the model satisfies the C14 monitor (all clauses except
    finiteness unconditionally; finiteness under the hypothesis that the Kalman value
    stays finite along the run). *)
From Coq Require Import Floats ZifyBool.
From Srtla Require Import Base Constants FConstants Wire WireSpec WireP BaseP Rtt Keepalive RttP KeepaliveP Run_C14.
Local Open Scope Z_scope.

Lemma sf_eqb_refl a : sf_eqb a a = true.
Proof.
  destruct a as [s|s| |s m e]; cbn; try reflexivity; try (destruct s; reflexivity).
  rewrite Pos.eqb_refl, Z.eqb_refl. destruct s; reflexivity.
Qed.
Lemma feqb_refl x : feqb x x = true. Proof. apply sf_eqb_refl. Qed.
Lemma flist_eqb_refl l : flist_eqb l l = true.
Proof. apply list_eqb_refl, feqb_refl. Qed.

Definition fin_link (l : link) : Prop := f_is_inf (kx (r_k (l_rtt l))) = false.
Definition fin_state (s : state) : Prop := Forall fin_link s.

(** What every lemma below says of a monitor code: the only clause the model can trip is
    5 (finiteness), and it does not trip it when [fin] (the Kalman values in sight are
    not infinite). *)
Definition good (fin : Prop) (c : N) : Prop := (c = 0%N \/ c = 5%N) /\ (fin -> c = 0%N).

Lemma good_0 (P : Prop) : good P 0%N.
Proof. split; auto. Qed.
Lemma good_first (P Q : Prop) a b : good P a -> good Q b -> good (P /\ Q) (first_code a b).
Proof. intros [[-> | ->] Ha] [[-> | ->] Hb]; split; cbn; auto; intros [HP HQ]; auto. Qed.
Lemma good_weaken (P Q : Prop) c : (Q -> P) -> good P c -> good Q c.
Proof. intros H [H1 H2]. split; auto. Qed.

Lemma lobs_good l : good (fin_link l) (lobs_code (lobs_of l)).
Proof.
  unfold fin_link, lobs_code, srtt_code, lobs_of, srtt_signed_ok, srtt_finite_ok. cbn [o_srtt].
  unfold get_smooth_rtt_ms.
  destruct (f_max0_ok (kx (r_k (l_rtt l)))) as [H1 H2]. rewrite H1, H2. cbn [negb andb]. split.
  - destruct (negb _); [right|left]; reflexivity.
  - intros H. rewrite (f_max0_finite _ H). reflexivity.
Qed.

Lemma live_pre_pobs l now : live_pre (pobs_of l) now = live l now.
Proof.
  unfold live_pre, live, silent_too_long, pobs_of. cbn [p_connected p_last_recv p_timeout].
  destruct (l_connected l); [|reflexivity]. cbn [andb].
  destruct (l_last_recv l) as [lr|]; [|reflexivity]. lia.
Qed.

Lemma ka_frame_is_ka l t now f : ka_frame_of l t now f -> frame_is_ka f = true.
Proof. intros (l0 & _ & _ & ->). unfold frame_is_ka. rewrite keepalive_packet_type. reflexivity. Qed.

Lemma ka_frame_ok l t now f : tele_ok t -> 0 <= now < two64 -> ka_frame_of l t now f ->
  frame_ok now t f = true.
Proof.
  intros Ht Hn Hf. unfold frame_ok. rewrite (ka_frame_is_ka l t now f Hf). cbn [negb].
  destruct Hf as (l0 & _ & _ & ->).
  destruct (keepalive_packet_frame l0 t now Ht Hn) as (Hlen & Hfirst & _ & Hinfo).
  rewrite Hlen, Hfirst, Hinfo. unfold ka_info.
  rewrite zlist_eqb_refl, !Z.eqb_refl. reflexivity.
Qed.

Lemma reg2_not_ka : frame_is_ka REG2_FRAME = false. Proof. reflexivity. Qed.

Lemma frames_ok l t rc now : tele_ok t -> 0 <= now < two64 ->
  forallb (frame_ok now t) (fst (tick_link l t rc now)) = true.
Proof.
  intros Ht Hn. apply forallb_forall. intros f Hin.
  destruct (proj1 (Forall_forall _ _) (tick_link_frames l t rc now) f Hin) as [->|Hf]; [reflexivity|].
  exact (ka_frame_ok l t now f Ht Hn Hf).
Qed.

Lemma tick_nosample_ok l t rc now :
  tick_nosample (pobs_of l) (lobs_of (snd (tick_link l t rc now))) = true.
Proof.
  unfold tick_nosample, lobs_of, pobs_of. cbn [o_last_meas o_kinit p_last_meas p_kinit].
  destruct (tick_link_core l t rc now) as [->|H].
  - cbn. rewrite !orb_true_r. reflexivity.
  - inversion H as [[H1 H2]]. rewrite H1, H2, Z.eqb_refl, Bool.eqb_reflx. reflexivity.
Qed.

Lemma existsb_ka_frames l t now fs :
  fs <> [] -> Forall (ka_frame_of l t now) fs -> existsb frame_is_ka fs = true.
Proof.
  intros Hne Hf. destruct fs as [|f fs]; [congruence|]. inversion Hf; subst.
  cbn [existsb]. rewrite (ka_frame_is_ka l t now f H1). reflexivity.
Qed.

(** [last] is the monitor's view of the link's last keepalive. *)
Lemma tick_last l t rc now last : l_last_ka l = None \/ l_last_ka l = last ->
  let fs := fst (tick_link l t rc now) in
  let l' := snd (tick_link l t rc now) in
  let last' := if existsb frame_is_ka fs then Some now else last in
  (l_last_ka l' = None \/ l_last_ka l' = last') /\
  (live l now = true -> exists k, last' = Some k /\ now - k < IDLE_MS).
Proof.
  intros Hi. cbn zeta. destruct (live l now) eqn:El.
  - pose proof (keepalive_fresh l t rc now El) as H.
    destruct (tick_link l t rc now) as [fs l']. cbn [fst snd].
    destruct H as (k & Hk & Hlt & [(Hne & -> & Hf)|(-> & ->)]).
    + rewrite (existsb_ka_frames l t now fs Hne Hf), Hk. split; [auto|]. intros _.
      exists now. pose proof idle_ms_1000. split; [reflexivity|lia].
    + cbn [existsb]. destruct Hi as [Hi|Hi]; [congruence|]. split; [auto|]. intros _.
      exists k. split; [congruence|exact Hlt].
  - pose proof (not_live_no_ka l t rc now El) as H.
    destruct (tick_link l t rc now) as [fs l']. cbn [fst snd].
    destruct H as (Hfs & [H2|H2]); (split; [|discriminate]); [|auto].
    rewrite H2. destruct Hfs as [->| ->]; exact Hi.
Qed.

Definition inv_link (l : link) (m : mlink) : Prop :=
  (l_last_ka l = None \/ l_last_ka l = m_last m) /\
  (forall t1, m_prev_live m = Some t1 -> exists k, m_last m = Some k /\ t1 - k < IDLE_MS).
Definition Inv (s : state) (ms : mstate) : Prop := Forall2 inv_link s ms.

Definition tobs_of (l : link) (fl : list frame * link) : tobs :=
  {| tb_pre := pobs_of l; tb_post := lobs_of (snd fl); tb_frames := fst fl |}.

Lemma mon_tick_link_ok D bound now l m t rc :
  IDLE_MS + D - 1 <= bound -> tele_ok t -> 0 <= now < two64 -> inv_link l m ->
  let fl := tick_link l t rc now in
  let r := mon_tick_link D bound now m (tobs_of l fl) t in
  good (fin_link l /\ fin_link (snd fl)) (fst r) /\ inv_link (snd fl) (snd r).
Proof.
  intros Hb Ht Hn [Hi1 Hi2]. cbn zeta.
  unfold mon_tick_link, tobs_of. cbn [tb_pre tb_post tb_frames fst snd].
  rewrite live_pre_pobs, (frames_ok l t rc now Ht Hn), tick_nosample_ok.
  pose proof (tick_last l t rc now (m_last m) Hi1) as Hs. cbn zeta in Hs. destruct Hs as [L1 L2].
  (* clause 1: the previous tick left a keepalive younger than IDLE_MS behind *)
  set (c1 := match m_prev_live m with Some _ => _ | None => _ end).
  assert (C1 : c1 = 0%N).
  { subst c1. destruct (m_prev_live m) as [t1|] eqn:Ep; [|reflexivity].
    destruct (live l now && (now - t1 <=? D)) eqn:E; [|reflexivity].
    destruct (Hi2 t1 eq_refl) as (k & -> & Hk).
    replace (now - k <=? bound) with true by lia. reflexivity. }
  rewrite C1. clear C1. cbn [first_code N.eqb].
  split; [exact (good_first _ _ _ _ (lobs_good l) (lobs_good _))|].
  split; cbn [m_last m_prev_live]; [exact L1|].
  intros t1 Ht1. destruct (live l now); [|discriminate]. injection Ht1 as <-. exact (L2 eq_refl).
Qed.

Lemma mon_tick_ok D bound now : IDLE_MS + D - 1 <= bound -> 0 <= now < two64 ->
  forall s ms ts rc, Forall tele_ok ts -> Inv s ms ->
  let r := mon_step D bound ms (OTick now ts rc) (obs_step s (OTick now ts rc)) in
  good (fin_state s /\ fin_state (map snd (tick_links s ts rc now))) (fst r) /\
  Inv (map snd (tick_links s ts rc now)) (snd r).
Proof.
  intros Hb Hn s. cbn [mon_step obs_step].
  induction s as [|l s IH]; intros ms ts rc Hts Hinv; cbn zeta.
  - cbn. split; [apply good_0|constructor].
  - inversion Hinv as [|? m ? ms' Hl Hrest]; subst.
    destruct (Forall_hd_tl tele_ok tele0 ts tele0_ok Hts) as [Hh Ht].
    cbn [tick_links combine map fst snd mon_tick hd tl].
    pose proof (mon_tick_link_ok D bound now l m (hd tele0 ts) (hd true rc) Hb Hh Hn Hl) as H1.
    cbn zeta in H1. unfold tobs_of in H1.
    destruct (mon_tick_link D bound now m _ (hd tele0 ts)) as [c m'].
    cbn [fst snd] in H1. destruct H1 as (Hc & Hi).
    specialize (IH ms' (tl ts) (tl rc) Ht Hrest). cbn zeta in IH.
    destruct (mon_tick D bound now ms' _ (tl ts)) as [c' ms''].
    cbn [fst snd] in *. destruct IH as (Hc' & Hi').
    split; [|constructor; assumption].
    eapply good_weaken; [|exact (good_first _ _ _ _ Hc Hc')].
    intros [F1 F2]. inversion F1; subst. inversion F2; subst. auto.
Qed.

Lemma Inv_upd f : (forall l, l_last_ka (f l) = l_last_ka l \/ l_last_ka (f l) = None) ->
  forall s ms i, Inv s ms -> Inv (upd s i f) ms.
Proof.
  intros Hf s ms i H. revert i. induction H as [|l m s ms Hl Hr IH]; intros i.
  - destruct i; constructor.
  - destruct i; cbn [upd]; constructor; auto; try (apply IH).
    destruct Hl as [[H1|H1] H2]; (split; [|exact H2]); destruct (Hf l) as [E|E]; rewrite E; auto.
Qed.

Lemma fin_nth s i l : fin_state s -> nth_error s i = Some l -> fin_link l.
Proof. intros H E. apply nth_error_In in E. exact (proj1 (Forall_forall _ _) H l E). Qed.

Lemma wf_tick now ts : u64_ok now && forallb tele_okb ts = true ->
  0 <= now < two64 /\ Forall tele_ok ts.
Proof.
  intros H. apply andb_prop in H. destruct H as [H1 H2]. unfold u64_ok in H1. split; [lia|].
  rewrite forallb_forall in H2. apply Forall_forall. intros t Ht. specialize (H2 t Ht).
  unfold tele_okb, i32_ok in H2. unfold tele_ok, i32_range. lia.
Qed.

Lemma sample_taken_false l l' : rtt_core (l_rtt l') = rtt_core (l_rtt l) ->
  sample_taken (lobs_of l) (kobs_of l) (lobs_of l') (kobs_of l') = false.
Proof.
  unfold rtt_core, sample_taken, lobs_of, kobs_of. cbn [o_last_meas o_kinit]. intros H.
  inversion H as [[H1 H2]]. rewrite H1, H2, Z.eqb_refl, Bool.eqb_reflx, flist_eqb_refl. reflexivity.
Qed.

Lemma pkt_clause3 l b now : bytes_ok b ->
  sample_taken (lobs_of l) (kobs_of l) (lobs_of (pkt_link l b now)) (kobs_of (pkt_link l b now))
  && (negb (echo_ok (lobs_of l) b now) || o_waiting (lobs_of (pkt_link l b now))) = false.
Proof.
  intros Hb. destruct (sample_taken _ _ _ _) eqn:Es; [|reflexivity]. cbn [andb].
  assert (Hne : rtt_core (l_rtt (pkt_link l b now)) <> rtt_core (l_rtt l)).
  { intros Heq. rewrite (sample_taken_false l _ Heq) in Es. discriminate. }
  destruct (pkt_link_sample l b now Hb Hne) as (Hw & _ & _ & ts & Hts & Hr & Hrt & _).
  assert (W' : o_waiting (lobs_of (pkt_link l b now)) = false).
  { unfold lobs_of. cbn [o_waiting]. rewrite Hrt. reflexivity. }
  rewrite W', orb_false_r.
  unfold echo_ok, lobs_of. cbn [o_waiting]. rewrite Hw, Hts.
  replace (0 <? now - ts) with true by lia. replace (now - ts <=? 10000) with true by lia. reflexivity.
Qed.

Lemma end_code_good s :
  good (fin_state s) (fold_right (fun d c => first_code (lobs_code (d_l d)) c) 0%N (map dump_of s)).
Proof.
  induction s as [|l s IH]; cbn; [apply good_0|].
  eapply good_weaken; [|exact (good_first _ _ _ _ (lobs_good l) IH)].
  intros F. inversion F; subst. auto.
Qed.

Lemma mon_step_ok D bound s ms o : IDLE_MS + D - 1 <= bound -> wf_opb o = true -> Inv s ms ->
  let r := mon_step D bound ms o (obs_step s o) in
  good (fin_state s /\ fin_state (step s o)) (fst r) /\ Inv (step s o) (snd r).
Proof.
  intros Hb Hwf Hinv. destruct o as [now ts rc|i b now|i|i t|].
  - destruct (wf_tick now ts Hwf) as [Hn Hts].
    exact (mon_tick_ok D bound now Hb Hn s ms ts rc Hts Hinv).
  - cbn [mon_step obs_step step wf_opb] in *.
    apply andb_prop in Hwf. destruct Hwf as [_ Hbytes]. apply bytes_okb_ok in Hbytes.
    assert (Hi : Inv (upd s i (fun l => pkt_link l b now)) ms).
    { apply Inv_upd; [|exact Hinv]. intros l. left. apply pkt_link_last_ka. }
    destruct (nth_error s i) as [l|] eqn:En; cbn [fst snd]; (split; [|exact Hi]); [|apply good_0].
    rewrite (pkt_clause3 l b now Hbytes). cbn [first_code N.eqb].
    eapply good_weaken; [|exact (good_first _ _ _ _ (lobs_good l) (lobs_good (pkt_link l b now)))].
    intros [F1 F2]. split; [exact (fin_nth s i l F1 En)|exact (fin_nth _ i _ F2 (nth_upd _ s i l En))].
  - cbn [mon_step obs_step step].
    assert (Hi : Inv (upd s i mark_for_recovery) ms).
    { apply Inv_upd; [|exact Hinv]. intros l. right. reflexivity. }
    destruct (nth_error s i) as [l|] eqn:En; cbn [fst snd]; (split; [|exact Hi]); [|apply good_0].
    eapply good_weaken; [|exact (lobs_good (mark_for_recovery l))].
    intros [_ F2]. exact (fin_nth _ i _ F2 (nth_upd _ s i l En)).
  - cbn [mon_step obs_step step fst snd].
    split; [apply good_0|apply Inv_upd; [intros l; left; reflexivity|exact Hinv]].
  - cbn [mon_step obs_step step fst snd].
    split; [exact (good_weaken _ _ _ (@proj1 _ _) (end_code_good s))|exact Hinv].
Qed.

Fixpoint finite_from (s : state) (ops : list op) : Prop :=
  fin_state s /\ match ops with [] => True | o :: t => finite_from (step s o) t end.
Definition finite_run (ids : list Z) (t0 : Z) (ops : list op) : Prop := finite_from (init ids t0) ops.

Lemma finite_from_head s ops : finite_from s ops -> fin_state s.
Proof. destruct ops; cbn; tauto. Qed.

Lemma mon_run_ok D bound : IDLE_MS + D - 1 <= bound ->
  forall ops s ms i, wf_opsb ops = true -> Inv s ms ->
  good (finite_from s ops) (fst (mon_run D bound ms ops (run_from s ops) i)).
Proof.
  intros Hb ops. induction ops as [|o ops IH]; intros s ms i Hwf Hinv; [apply good_0|].
  cbn [wf_opsb forallb] in Hwf. apply andb_prop in Hwf. destruct Hwf as [Hwo Hwf].
  cbn [run_from mon_run].
  pose proof (mon_step_ok D bound s ms o Hb Hwo Hinv) as H. cbn zeta in H.
  destruct (mon_step D bound ms o (obs_step s o)) as [c ms']. cbn [fst snd] in H.
  destruct H as ([Hc Hf] & Hi). specialize (IH (step s o) ms' (i + 1)%N Hwf Hi).
  destruct (c =? 0)%N eqn:Ec.
  - apply (good_weaken _ _ _ (@proj2 _ _) IH).
  - cbn [fst]. split; [exact Hc|]. intros [F1 F2]. apply Hf.
    split; [exact F1|exact (finite_from_head _ _ F2)].
Qed.

Lemma Inv_init ids t0 : Inv (init ids t0) (repeat m0 (length ids)).
Proof.
  unfold init. induction ids as [|id ids IH]; cbn; constructor; [|exact IH].
  split; [left; reflexivity|]. intros t1 H. discriminate.
Qed.

(** General spacing D: with ticks at most D apart on a link live at both, the previous
    keepalive is at most [IDLE_MS + D - 1] old — and every other clause of the monitor. *)
Lemma monitor_general D bound ids t0 ops : IDLE_MS + D - 1 <= bound -> wf_opsb ops = true ->
  good (finite_run ids t0 ops) (fst (mon_run D bound (repeat m0 (length ids)) ops (run ids t0 ops) 0)).
Proof.
  intros Hb Hwf. exact (mon_run_ok D bound Hb ops (init ids t0) _ 0%N Hwf (Inv_init ids t0)).
Qed.

Lemma period_bound : IDLE_MS + PERIOD - 1 <= 2 * PERIOD.
Proof. cbv. discriminate. Qed.

(** decidable version of [finite_from], for the example run of Props/C14.v *)
Definition fin_stateb (s : state) : bool :=
  forallb (fun l => negb (f_is_inf (kx (r_k (l_rtt l))))) s.
Fixpoint finite_fromb (s : state) (ops : list op) : bool :=
  fin_stateb s && match ops with [] => true | o :: t => finite_fromb (step s o) t end.
Lemma fin_stateb_ok s : fin_stateb s = true -> fin_state s.
Proof.
  unfold fin_stateb, fin_state, fin_link. rewrite forallb_forall, Forall_forall.
  intros H l Hl. specialize (H l Hl). destruct (f_is_inf _); [discriminate|reflexivity].
Qed.
Lemma finite_fromb_ok : forall ops s, finite_fromb s ops = true -> finite_from s ops.
Proof.
  induction ops as [|o ops IH]; intros s H; cbn in *; apply andb_prop in H; destruct H as [H1 H2];
    (split; [apply fin_stateb_ok; exact H1|auto]).
Qed.
