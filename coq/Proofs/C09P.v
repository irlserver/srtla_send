(** C09P.v — the model's own traces satisfy the C09 monitor, for every history. *)
From Srtla Require Import Base BaseP WireSpec Conn Run_Core ConnP CoreRunP UplinkP Run_C09.
From Coq Require Import ZifyBool.

Lemma wd_eqb_refl w : wd_eqb w w = true.
Proof. destruct w; cbn; rewrite ?zlist_eqb_refl, ?Z.eqb_refl; reflexivity. Qed.

Lemma uobs_eqb_refl o : uobs_eqb o o = true.
Proof.
  unfold uobs_eqb. rewrite obs_eqb_refl, !list_eqb_refl, Bool.eqb_reflx; auto using zlist_eqb_refl, wd_eqb_refl.
Qed.

Lemma pos_of_find_pos id : forall l i, pos_of id (map cid l) i = find_pos id l i.
Proof.
  induction l as [|c l IH]; intros i; cbn; [reflexivity|].
  destruct (cid c =? id); [reflexivity|apply IH].
Qed.


Lemma mem_z_insert x y l : mem_z x (insert_sorted y l) = (x =? y) || mem_z x l.
Proof.
  induction l as [|z l IH]; cbn; [reflexivity|].
  destruct (y <=? z); cbn; [reflexivity|]. unfold mem_z in IH. rewrite IH.
  destruct (x =? z); destruct (x =? y); reflexivity.
Qed.
Lemma mem_z_sort x l : mem_z x (sort_z l) = mem_z x l.
Proof.
  induction l as [|y l IH]; [reflexivity|]. unfold sort_z in *. cbn [fold_right].
  rewrite mem_z_insert, IH. reflexivity.
Qed.
Lemma mem_z_keys x c : mem_z x (o_keys (obs_link c)) = log_mem x (log c).
Proof.
  unfold o_keys, obs_link. cbn [snd]. rewrite mem_z_sort. unfold mem_z, log_mem.
  induction (log c) as [|[k v] l IH]; cbn; [reflexivity|]. rewrite IH, (Z.eqb_sym x k). reflexivity.
Qed.

Lemma o_proof_obs c : o_proof (obs_link c) = proof c. Proof. reflexivity. Qed.
Lemma o_lastrecv_obs c : o_lastrecv (obs_link c) = zo (last_recv c). Proof. reflexivity. Qed.
Lemma o_waiting_obs x : o_waiting (obs_x x) = waiting x.
Proof. unfold o_waiting, obs_x. cbn. destruct (waiting x); reflexivity. Qed.

Lemma proof_rel_ok s id w now j c c' :
  proof_rel s id w now j c c' ->
  proof_ok (bytes_of w) now (find_pos id (links (core s)) 0) (map obs_x (xs s)) j (obs_link c) (obs_link c') = true.
Proof.
  unfold proof_rel, proof_ok. cbv zeta. rewrite !o_proof_obs.
  intros [H|(Hn & [(Ht & a & Ha & Hm1 & Hm2)|(Ht & Hf & (x & Hx & Hw) & Hka)])].
  - rewrite H, Z.eqb_refl. reflexivity.
  - rewrite Hn, Z.eqb_refl, Ht. cbn [ozeqb opt_eqb]. rewrite Z.eqb_refl. cbn [andb].
    replace (earned _ _ _) with true; [apply orb_true_r|]. symmetry.
    unfold earned. apply existsb_exists. exists a. split; [exact Ha|].
    rewrite !mem_z_keys, Hm1, Hm2. reflexivity.
  - rewrite Hn, Z.eqb_refl, Ht, Hf. cbn [ozeqb opt_eqb andb].
    assert (Hts : 10 <= blen (bytes_of w)).
    { unfold ka_accepts in Hka. destruct (ka_ts (bytes_of w)) eqn:E; [|discriminate]. apply ka_ts_some in E. tauto. }
    replace (10 <=? blen (bytes_of w)) with true by lia.
    rewrite Nat.eqb_refl, (nth_map_some obs_x [] _ _ _ Hx), o_waiting_obs, Hw.
    rewrite Z.eqb_refl. cbn. destruct (_ =? _); cbn; try reflexivity; apply orb_true_r.
Qed.

Lemma forallb_eq_w w l : Forall (fun y => y = w) l -> forallb (wd_eqb w) l = true.
Proof. induction 1 as [|y l -> _ IH]; cbn; [reflexivity|]. rewrite wd_eqb_refl. exact IH. Qed.

Lemma SInv_find_pos_xs ids s id idx : SInv ids s -> find_pos id (links (core s)) 0 = Some idx -> (idx < length (xs s))%nat.
Proof.
  intros (_ & Hlen & _) H. destruct (find_pos_link _ _ _ H) as (c & Hc & _).
  rewrite Hlen. apply nth_error_Some. congruence.
Qed.

Theorem mon_uplink_model ids s id w now cl : SInv ids s ->
  let r := handle_uplink s id w now cl in
  mon_uplink ids (client s) id w now (obs_u s [] false) (obs_u (fst (fst r)) (snd (fst r)) (snd r)) = 0%N.
Proof.
  intros HI. cbv zeta. unfold mon_uplink. cbv zeta.
  replace (pos_of id ids 0) with (find_pos id (links (core s)) 0)
    by (destruct HI as (<- & _); symmetry; apply pos_of_find_pos).
  destruct (uplink_preserves s id w now cl ids HI) as (_ & _ & Hpanic).
  apply first_clause_all.
  repeat (apply Forall_cons; [cbn [snd]|]); [| | | | | |constructor].
  - (* 1 total *) cbn [u_panic obs_u]. rewrite Hpanic. reflexivity.
  - (* 2 relay *)
    cbn [u_fwd obs_u]. destruct (spec_type (bytes_of w)) as [t|] eqn:Et; [|reflexivity].
    destruct (client s) eqn:Ek; [|reflexivity].
    destruct (find_pos id (links (core s)) 0) as [idx|] eqn:Ef; [|reflexivity].
    destruct (is_internal t) eqn:Ei; [reflexivity|]. cbn [andb negb].
    destruct (uplink_relay s id w now cl idx t Ek Ef (SInv_find_pos_xs ids s id idx HI Ef) Et Ei) as [-> | ->]; cbn; rewrite wd_eqb_refl; reflexivity.
  - (* 3 internal never relayed *)
    cbn [u_fwd obs_u]. destruct (spec_type (bytes_of w)) as [t|] eqn:Et; [|reflexivity].
    destruct (is_internal t) eqn:Ei; [|reflexivity].
    rewrite (uplink_internal_never_relayed s id w now cl t Et Ei). reflexivity.
  - (* 4 unmodified *) cbn [u_fwd obs_u]. apply forallb_eq_w. apply uplink_only_the_datagram.
  - (* 5 liveness *)
    destruct (spec_type (bytes_of w)) as [t|] eqn:Et; [|reflexivity].
    destruct (find_pos id (links (core s)) 0) as [idx|] eqn:Ef; [|reflexivity].
    destruct (is_registration t) eqn:Er; [reflexivity|].
    destruct (uplink_liveness_stamp s id w now cl idx t Ef (SInv_find_pos_xs ids s id idx HI Ef) Et Er) as (c' & Hn & Hl).
    cbn [u_links obs_u]. unfold obs_state. rewrite (nth_map_some obs_link _ _ _ _ Hn), o_lastrecv_obs, Hl.
    cbn [zo]. apply Z.eqb_refl.
  - (* 6 delivery proof only earned *)
    cbn [u_links u_xs obs_u]. unfold obs_state.
    eapply forall_idx_map; [apply (uplink_proof_only_earned s id w now cl)|].
    intros j a b Hr. apply proof_rel_ok. exact Hr.
Qed.

Lemma on_link_inv ids i f s : (forall c, cid (f c) = cid c) -> (forall c, WInv c -> WInv (f c)) ->
  SInv ids s -> SInv ids (on_link i f s).
Proof.
  intros H1 H2 (Hids & Hlen & Hw). unfold SInv, on_link. cbn [core links xs].
  rewrite map_upd, upd_length by exact H1. repeat split; auto. apply Forall_upd; auto.
Qed.
Lemma on_x_inv ids i f s : SInv ids s -> SInv ids (on_x i f s).
Proof. intros (Hids & Hlen & Hw). unfold SInv, on_x. cbn [core links xs]. rewrite upd_length. auto. Qed.

Definition client_after (k : bool) (o : uop) : bool := match o with SClient b => b | _ => k end.

Theorem ustep_preserves ids s o : SInv ids s ->
  SInv ids (fst (fst (ustep s o))) /\ client (fst (fst (ustep s o))) = client_after (client s) o /\
  snd (ustep s o) = false.
Proof.
  intros HI. destruct o; cbn [ustep fst snd client_after];
    try (split; [|split; reflexivity]).
  - apply on_link_inv; auto.
  - destruct (nth_error _ _); cbn [fst snd]; (split; [|split; reflexivity]); exact HI.
  - apply on_link_inv; auto.
  - apply on_x_inv; auto.
  - apply on_x_inv; auto.
  - apply on_x_inv; auto.
  - apply on_link_inv; auto.
  - apply on_x_inv. apply on_link_inv; auto.
    intros c [_ Ho]. pose proof wconsts. unfold WInv, mark_for_recovery, reset_core. cbn [window ovf]. split; [lia|exact Ho].
  - exact HI.
  - destruct (uplink_preserves s id w now classic ids HI) as (H1 & H2 & H3). auto.
Qed.

Lemma ustep_setup_quiet s o : (match o with UUplink _ _ _ _ => False | _ => True end) -> snd (fst (ustep s o)) = [].
Proof. destruct o; cbn; intros H; try reflexivity; [destruct (nth_error _ _); reflexivity|contradiction]. Qed.

Lemma mon_step_model ids s o fwd0 p0 : SInv ids s ->
  mon_step ids (client s) o (obs_u s fwd0 p0)
           (obs_u (fst (fst (ustep s o))) (snd (fst (ustep s o))) (snd (ustep s o))) =
  (client (fst (fst (ustep s o))), 0%N).
Proof.
  intros HI. destruct (ustep_preserves ids s o HI) as (_ & Hk & _).
  destruct o; cbn [mon_step]; rewrite Hk; cbn [client_after]; try reflexivity.
  f_equal. cbn [ustep].
  (* the monitor reads only links and x-fields of the previous observation *)
  exact (mon_uplink_model ids s id w now classic HI).
Qed.

Lemma mon_run_model ids ops : forall s fwd0 p0 i, SInv ids s ->
  mon_run ids (client s) (obs_u s fwd0 p0) (model_steps s ops) i = (0, 0)%N.
Proof.
  induction ops as [|o ops IH]; intros s fwd0 p0 i HI; cbn [model_steps mon_run]; [reflexivity|].
  destruct (ustep s o) as [[s' fwd] p] eqn:Es.
  pose proof (mon_step_model ids s o fwd0 p0 HI) as Hm. rewrite Es in Hm. cbn [fst snd] in Hm.
  cbn [mon_run]. rewrite Hm. cbn [N.eqb].
  apply IH. pose proof (ustep_preserves ids s o HI) as (H1 & _). rewrite Es in H1. exact H1.
Qed.

Lemma corr_run_model ops : forall s i, corr_run s (model_steps s ops) i = 0%N.
Proof.
  induction ops as [|o ops IH]; intros s i; cbn [model_steps corr_run]; [reflexivity|].
  destruct (ustep s o) as [[s' fwd] p] eqn:Es. cbn [corr_run]. rewrite Es, uobs_eqb_refl. apply IH.
Qed.

Lemma uinit_inv ids : SInv ids (uinit ids).
Proof.
  unfold SInv, uinit, init. cbn [core links xs]. rewrite !map_length, map_map. cbn [link0 cid].
  split; [apply map_id|]. split; [reflexivity|].
  apply Forall_forall. intros c Hc. apply in_map_iff in Hc as (id & <- & _).
  pose proof wconsts. unfold WInv, link0. cbn. lia.
Qed.

Theorem model_never_panics ids ops : Forall (fun st => u_panic (snd st) = false) (h_steps (run ids ops)).
Proof.
  unfold run. cbn [h_steps]. generalize (uinit_inv ids). generalize (uinit ids).
  induction ops as [|o ops IH]; intros s HI; cbn [model_steps]; [constructor|].
  destruct (ustep s o) as [[s' fwd] p] eqn:Es.
  destruct (ustep_preserves ids s o HI) as (H1 & _ & H3). rewrite Es in H1, H3. cbn [fst snd] in *.
  constructor; [cbn; exact H3|apply IH; exact H1].
Qed.
