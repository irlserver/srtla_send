(** Order facts about the float comparison; the model's scoring against the independent oracle of
    Run_C11; what the accumulator of [pick] holds at the end and what [decide] makes of it. *)
From Coq Require Import ZArith List Bool Lia Floats Reals Lra.
From Srtla Require Import Base Constants FConstants Select Run_Sel Run_C11 FloatP SelectP.
From Flocq Require Import Core BinarySingleNaN PrimFloat.
Import ListNotations.
Local Notation float := PrimFloat.float (only parsing).

(** Like FloatP's order facts, infinities and NaN included: a comparison with a NaN operand is
    false, the others are comparisons of [key]s. *)
Section Order.
Local Open Scope R_scope.

Lemma not_ltb_trans x y z :
  PrimFloat.is_nan y = false ->
  (x <? y)%float = false -> (y <? z)%float = false -> (x <? z)%float = false \/ PrimFloat.is_nan x = true.
Proof.
  intros Ny H1 H2. destruct (PrimFloat.is_nan x) eqn:Nx; [now right|]. left.
  destruct (PrimFloat.is_nan z) eqn:Nz; [now apply ltb_nan_r|].
  revert H1 H2. rewrite !ltb_key by assumption. do 3 case Rlt_bool_spec; try easy. intros; lra.
Qed.
End Order.

Local Open Scope Z_scope.

Lemma spec_timed_out_eq now c : spec_timed_out now c = is_timed_out c now.
Proof.
  unfold spec_timed_out, is_timed_out, ssub.
  destruct (l_conn c); cbn [negb].
  - now destruct (l_lastrx c).
  - destruct ((l_est c =? 0) && (now <? l_grace c)); [reflexivity|]. now destruct (l_lastrx c).
Qed.

Lemma spec_eligible_eq now c : spec_eligible now c = negb (skipped now c).
Proof.
  unfold spec_eligible, skipped, is_schedulable. rewrite spec_timed_out_eq.
  destruct (is_timed_out c now), (l_phase c), (l_gated c); reflexivity.
Qed.

Lemma spec_over_cap_eq c : spec_over_cap c = in_flight_cap_exceeded c.
Proof.
  unfold spec_over_cap, in_flight_cap_exceeded, in_flight_cap_packets, f64_is_finite.
  destruct (l_cct c =? 0); reflexivity.
Qed.

Lemma spec_unconstrained_eq now c : spec_unconstrained now c = unconstrained now c.
Proof.
  unfold spec_unconstrained, unconstrained. rewrite spec_eligible_eq, spec_over_cap_eq.
  unfold skipped.
  destruct (l_conn c), (is_timed_out c now), (is_schedulable c), (l_gated c), (l_weak c), (l_lossdeg c);
    reflexivity.
Qed.

Lemma spec_base_eq c : spec_base c = get_score c.
Proof.
  unfold spec_base, get_score. destruct (l_conn c); cbn [negb]; [|reflexivity].
  now rewrite Z.max_comm.
Qed.

Lemma spec_quality_eq now e c : spec_quality now e c = fst (cached_quality c now e).
Proof.
  unfold spec_quality, cached_quality.
  rewrite Z.ltb_antisym. destruct (QUALITY_CACHE_INTERVAL_MS <=? ssub now (l_qlast c)); cbn [negb fst]; [|reflexivity].
  unfold calc_quality, time_since_last_nak, rtt_bonus, smooth_rtt.
  destruct (ssub now (l_est c) <? STARTUP_GRACE_PERIOD_MS); [reflexivity|].
  destruct (l_naklast c =? 0); reflexivity.
Qed.

Lemma spec_soft_cap_eq c : spec_soft_cap c = cc_soft_cap_multiplier c.
Proof.
  unfold spec_soft_cap, cc_soft_cap_multiplier.
  destruct (l_cct c =? 0); cbn [orb]; [reflexivity|]. destruct (l_bps c <=? 0)%float; reflexivity.
Qed.

Lemma score_link_is_spec au q now e c :
  option_map fst (score_link au q now e c) =
  if spec_candidate au now c then Some (spec_score au q now e c) else None.
Proof.
  unfold score_link, spec_candidate. rewrite spec_eligible_eq, spec_over_cap_eq.
  destruct (skipped now c); cbn [negb andb option_map]; [reflexivity|].
  destruct (au && in_flight_cap_exceeded c); cbn [negb option_map]; [reflexivity|].
  unfold spec_score. rewrite spec_base_eq, spec_soft_cap_eq, spec_quality_eq.
  destruct q; cbn [negb].
  - destruct (cached_quality c now e) as (qq, c1). cbn [option_map fst]. unfold phase_weight.
    destruct (l_phase c); reflexivity.
  - cbn [option_map fst]. unfold phase_weight. destruct (l_phase c); reflexivity.
Qed.

Lemma score_list_spec ls : forall exps au q now,
  score_list ls exps au q now = spec_scores au q now ls exps.
Proof.
  induction ls as [|c t IH]; intros; cbn [spec_scores]; [reflexivity|].
  unfold score_list. cbn [map_exps]. unfold link_score at 1. rewrite score_link_is_spec. f_equal. apply IH.
Qed.

Lemma existsb_unconstrained_spec now ls :
  existsb (spec_unconstrained now) ls = existsb (unconstrained now) ls.
Proof. induction ls as [|c t IH]; cbn; [reflexivity|]. now rewrite spec_unconstrained_eq, IH. Qed.

Lemma pick_score_max scs : forall last i a,
  (forall x, (ea_score a <? x)%float = false -> (ea_score (pick scs last i a) <? x)%float = false) /\
  (forall s, In (Some s) scs -> (ea_score (pick scs last i a) <? s)%float = false).
Proof.
  induction scs as [|o t IH]; intros last i a; cbn [pick].
  - split; [auto | intros s []].
  - destruct o as [s|].
    + set (cur := if onat_eqb (Some i) last then Some s else ea_cur a).
      destruct (ea_score a <? s)%float eqn:L.
      * destruct (IH last (S i) (EA (Some i) s cur)) as (D1 & D2). cbn [ea_score] in D1. split.
        -- intros x Hx. apply D1. eapply ltb_trans_neg; eauto.
        -- intros s' [E|Hin]; [inversion E; subst; apply D1, ltb_irrefl | now apply D2].
      * destruct (IH last (S i) (EA (ea_best a) (ea_score a) cur)) as (D1 & D2). cbn [ea_score] in D1. split.
        -- exact D1.
        -- intros s' [E|Hin]; [inversion E; subst; now apply D1 | now apply D2].
    + destruct (IH last (S i) a) as (D1 & D2). split; [exact D1|].
      intros s' [E|Hin]; [discriminate | now apply D2].
Qed.

Definition nths (all : list (option float)) (i : nat) : option float := nth i all None.

Lemma pick_attained all : forall scs pre last a,
  all = pre ++ scs ->
  (forall b, ea_best a = Some b -> nths all b = Some (ea_score a)) ->
  forall b, ea_best (pick scs last (length pre) a) = Some b ->
            nths all b = Some (ea_score (pick scs last (length pre) a)).
Proof.
  induction scs as [|o t IH]; intros pre last a Hall Ha; cbn [pick]; [exact Ha|].
  assert (Hall' : all = (pre ++ [o]) ++ t) by (rewrite <- app_assoc; exact Hall).
  assert (Hlen : length (pre ++ [o]) = S (length pre)) by (rewrite app_length; cbn; lia).
  destruct o as [s|].
  - set (cur := if onat_eqb (Some (length pre)) last then Some s else ea_cur a).
    destruct (ea_score a <? s)%float.
    + rewrite <- Hlen. apply IH; [exact Hall'|]. cbn [ea_best ea_score]. intros b E. inversion E; subst.
      unfold nths. rewrite app_nth2 by lia. now rewrite Nat.sub_diag.
    + rewrite <- Hlen. apply IH; [exact Hall'|]. exact Ha.
  - rewrite <- Hlen. apply IH; [exact Hall' | exact Ha].
Qed.

Lemma pick_cur scs : forall last i a,
  ea_cur (pick scs last i a) =
  match last with
  | Some l => if (i <=? l)%nat
              then match nth (l - i) scs None with Some s => Some s | None => ea_cur a end
              else ea_cur a
  | None => ea_cur a
  end.
Proof.
  induction scs as [|o t IH]; intros last i a; cbn [pick].
  - destruct last as [l|]; [|reflexivity]. destruct (i <=? l)%nat; [|reflexivity]. now destruct (l - i)%nat.
  - assert (Step : forall a1,
      ea_cur a1 = match o with Some s => if onat_eqb (Some i) last then Some s else ea_cur a | None => ea_cur a end ->
      ea_cur (pick t last (S i) a1) =
      match last with
      | Some l => if (i <=? l)%nat
                  then match nth (l - i) (o :: t) None with Some s => Some s | None => ea_cur a end
                  else ea_cur a
      | None => ea_cur a
      end).
    { intros a1 E1. rewrite IH, E1. destruct last as [l|]; [|now destruct o]. cbn [onat_eqb].
      destruct (Nat.compare_spec i l) as [->|L|L].
      - rewrite Nat.eqb_refl, Nat.leb_refl, Nat.sub_diag, (proj2 (Nat.leb_gt _ _)) by lia. now destruct o.
      - rewrite !(proj2 (Nat.leb_le _ _)), (proj2 (Nat.eqb_neq _ _)) by lia.
        replace (l - i)%nat with (S (l - S i)) by lia. cbn [nth]. now destruct o.
      - rewrite !(proj2 (Nat.leb_gt _ _)), (proj2 (Nat.eqb_neq _ _)) by lia. now destruct o. }
    destruct o as [s|]; [destruct (ea_score a <? s)%float|]; now apply Step.
Qed.

Lemma pick_keeps scs : forall last i a, ea_best a <> None -> ea_best (pick scs last i a) <> None.
Proof.
  induction scs as [|[s|] t IH]; intros last i a Ha; cbn [pick]; auto.
  apply IH. destruct (ea_score a <? s)%float; cbn [ea_best]; [discriminate | exact Ha].
Qed.

Lemma pick_hit scs : forall last i a,
  (ea_best a = None -> ea_score a = (-1)%float) ->
  (exists s, In (Some s) scs /\ ((-1) <? s)%float = true) ->
  ea_best (pick scs last i a) <> None.
Proof.
  induction scs as [|o t IH]; intros last i a Hinv (u & Hin & Hu); [easy|].
  destruct Hin as [->|Hin]; cbn [pick].
  - apply pick_keeps. destruct (ea_score a <? u)%float eqn:L; cbn [ea_best]; [discriminate|].
    intros En. rewrite (Hinv En) in L. congruence.
  - destruct o as [s|]; apply IH; try (now exists u); [|exact Hinv].
    destruct (ea_score a <? s)%float; cbn [ea_best ea_score]; [discriminate | exact Hinv].
Qed.

Lemma nths_lt all i s : nths all i = Some s -> (i < length all)%nat.
Proof.
  unfold nths. intros E. destruct (Nat.lt_ge_cases i (length all)); auto.
  rewrite nth_overflow in E by assumption. discriminate.
Qed.

Lemma In_nths all i s : nths all i = Some s -> In (Some s) all.
Proof. intros E. rewrite <- E. apply nth_In. now apply (nths_lt all i s). Qed.

Lemma all_below_In scs cur s : all_below scs cur = true -> In (Some s) scs -> (s <? cur * SWITCH_THRESHOLD)%float = true.
Proof. unfold all_below. rewrite forallb_forall. intros H Hin. exact (H _ Hin). Qed.

Local Notation fin_acc scs last := (pick scs last 0 a0).

Lemma pick0_attained scs last b : ea_best (fin_acc scs last) = Some b -> nths scs b = Some (ea_score (fin_acc scs last)).
Proof.
  apply (pick_attained scs scs [] last a0); [reflexivity|]. intros b' E. discriminate.
Qed.
Lemma pick0_cur scs last : ea_cur (fin_acc scs last) = match last with Some l => nths scs l | None => None end.
Proof.
  rewrite pick_cur. destruct last as [l|]; [|reflexivity]. cbn [Nat.leb]. rewrite Nat.sub_0_r. unfold nths.
  now destruct (nth l scs None).
Qed.
Lemma pick0_max scs last s : In (Some s) scs -> (ea_score (fin_acc scs last) <? s)%float = false.
Proof. apply (pick_score_max scs last 0 a0). Qed.

Lemma decide_keeps last a : ea_best a <> None -> decide last a <> None.
Proof.
  intros H. unfold decide. destruct last as [l|]; [|exact H]. destruct (negb _); [|exact H].
  destruct (ea_cur a); [|exact H]. now destruct (_ <? _)%float.
Qed.

Lemma decide_candidate scs last i :
  decide last (pick scs last 0 a0) = Some i -> exists si, nths scs i = Some si.
Proof.
  pose proof (pick0_cur scs last) as C. pose proof (pick0_attained scs last) as A.
  remember (pick scs last 0 a0) as f eqn:Ef. clear Ef. unfold decide.
  destruct last as [l|]; [|intros E; eexists; now apply A].
  destruct (negb (onat_eqb (ea_best f) (Some l))); [|intros E; eexists; now apply A].
  destruct (ea_cur f) as [cur|]; [|intros E; eexists; now apply A].
  destruct (ea_score f <? cur * SWITCH_THRESHOLD)%float; [|intros E; eexists; now apply A].
  intros E. inversion E; subst. exists cur. now symmetry.
Qed.

Lemma decide_leave scs l i sc :
  decide (Some l) (pick scs (Some l) 0 a0) = Some i -> i <> l -> nths scs l = Some sc ->
  all_below scs sc = false.
Proof.
  pose proof (pick0_cur scs (Some l)) as C. pose proof (pick0_attained scs (Some l)) as A.
  remember (pick scs (Some l) 0 a0) as f eqn:Ef. clear Ef. unfold decide. cbv iota in C.
  intros E Hne Hl. rewrite Hl in C. rewrite C in E.
  destruct (negb (onat_eqb (ea_best f) (Some l))) eqn:Nb.
  - destruct (ea_score f <? sc * SWITCH_THRESHOLD)%float eqn:T; [inversion E; congruence|].
    destruct (all_below scs sc) eqn:B; [|reflexivity].
    apply A, In_nths in E. apply (all_below_In _ _ _ B) in E. congruence.
  - apply negb_false_iff, onat_eqb_eq in Nb. congruence.
Qed.

Lemma decide_argmax scs last i si :
  (forall s, In (Some s) scs -> PrimFloat.is_nan s = false) ->
  decide last (pick scs last 0 a0) = Some i -> nths scs i = Some si ->
  is_max scs si = true \/ (last = Some i /\ all_below scs si = true).
Proof.
  intros Hnan E Hi.
  pose proof (pick0_cur scs last) as C. pose proof (pick0_attained scs last) as A.
  pose proof (pick0_max scs last) as M.
  remember (pick scs last 0 a0) as f eqn:Ef. clear Ef.
  assert (Best : ea_best f = Some i -> is_max scs si = true).
  { intros Eb. apply A in Eb. rewrite Hi in Eb. inversion Eb; subst.
    unfold is_max. apply forallb_forall. intros [s|] Hin; [|reflexivity].
    apply negb_true_iff. now apply M. }
  revert E. unfold decide.
  destruct last as [l|]; [|intros E; left; now apply Best].
  destruct (negb (onat_eqb (ea_best f) (Some l))); [|intros E; left; now apply Best].
  destruct (ea_cur f) as [cur|] eqn:Ec; [|intros E; left; now apply Best].
  destruct (ea_score f <? cur * SWITCH_THRESHOLD)%float eqn:T; [|intros E; left; now apply Best].
  intros E. inversion E; subst. right. split; [reflexivity|].
  rewrite Hi in C. inversion C; subst.
  unfold all_below. apply forallb_forall. intros [s|] Hin; [|reflexivity].
  change SPEC_SWITCH with SWITCH_THRESHOLD.
  apply (fle_ltb_trans s (ea_score f)); [|exact T].
  apply not_ltb_fle; [apply (ltb_not_nan _ _ T) | now apply Hnan | now apply M].
Qed.
