(** HubP.v — basic lemmas about the hub model: association lists, the ids of an entry list, program
    counters, enabledness (wait-freedom of publish), sequential composition as a schedule. *)
From Srtla Require Import Base Hub.
From Coq Require Import ZifyBool.

Lemma lookup_update : forall A (l : list (Z * A)) k k' v,
  lookup (update l k v) k' = if k =? k' then Some v else lookup l k'.
Proof.
  induction l as [|[k0 v0] r IH]; intros k k' v; cbn; [reflexivity|].
  destruct (k0 =? k) eqn:E; cbn; [|rewrite IH]; destruct (k =? k') eqn:E1; destruct (k0 =? k') eqn:E2; try reflexivity; lia.
Qed.

Lemma lookup_update_eq : forall A (l : list (Z * A)) k v, lookup (update l k v) k = Some v.
Proof. intros. rewrite lookup_update, Z.eqb_refl. reflexivity. Qed.

Lemma lookup_update_neq : forall A (l : list (Z * A)) k k' v, k <> k' ->
  lookup (update l k v) k' = lookup l k'.
Proof. intros A l k k' v Hn. rewrite lookup_update. destruct (Z.eqb_spec k k'); [contradiction|reflexivity]. Qed.

Lemma lookup_In : forall A (l : list (Z * A)) k v, lookup l k = Some v -> In (k, v) l.
Proof.
  induction l as [|[k0 v0] r IH]; intros k v H; cbn in *; [discriminate|].
  destruct (k0 =? k) eqn:E.
  - inversion H. subst. left. f_equal. lia.
  - right. apply IH. exact H.
Qed.

Lemma lookup_app : forall A (l x : list (Z * A)) k,
  lookup (l ++ x) k = match lookup l k with Some v => Some v | None => lookup x k end.
Proof.
  induction l as [|[k0 v0] r IH]; intros x k; cbn; [reflexivity|]. destruct (k0 =? k); [reflexivity|apply IH].
Qed.

Lemma lookup_None_iff : forall A (l : list (Z * A)) k, lookup l k = None <-> ~ In k (map fst l).
Proof.
  induction l as [|[k0 v0] r IH]; intros k; cbn; [tauto|].
  destruct (Z.eqb_spec k0 k) as [->|Hn]; [|rewrite IH; tauto].
  split; [discriminate|]. intro H. destruct H. left. reflexivity.
Qed.

Lemma zmem_In : forall x l, zmem x l = true <-> In x l.
Proof.
  intros x l. unfold zmem. rewrite existsb_exists. split.
  - intros [y [H1 H2]]. assert (x = y) by lia. subst. exact H1.
  - intro H. exists x. split; [exact H|lia].
Qed.

Lemma ids_of_app : forall a b, ids_of (a ++ b) = ids_of a ++ ids_of b.
Proof. intros. unfold ids_of. apply map_app. Qed.

Lemma in_ids_of : forall id l, In id (ids_of l) <-> exists e, In e l /\ e_id e = id.
Proof.
  intros. unfold ids_of. rewrite in_map_iff. split; intros [e [H1 H2]]; exists e; tauto.
Qed.

Lemma incl_ids : forall a b, incl a b -> incl (ids_of a) (ids_of b).
Proof.
  intros a b H id Hi. apply in_ids_of in Hi. destruct Hi as [e [H1 H2]]. apply in_ids_of. exists e. split; [apply H; exact H1|exact H2].
Qed.

Lemma filter_ids_notin : forall (f : entry -> bool) l id,
  (forall e, e_id e = id -> f e = false) -> ~ In id (ids_of (filter f l)).
Proof.
  intros f l id Hf H. apply in_ids_of in H. destruct H as [e [H1 H2]].
  apply filter_In in H1. destruct H1 as [_ H1]. rewrite (Hf e H2) in H1. discriminate.
Qed.

(** Every step that moves a task writes [update (pcs s) t p] into [pcs]; whatever else it changes,
    the program counters of the new state [X] are read by this lemma. *)
Lemma get_pc_update : forall (s X : state) t p t', pcs X = update (pcs s) t p ->
  get_pc X t' = if t =? t' then p else get_pc s t'.
Proof. intros s X t p t' H. unfold get_pc. rewrite H, lookup_update. destruct (t =? t'); reflexivity. Qed.

Lemma get_pc_update_eq : forall (s X : state) t p, pcs X = update (pcs s) t p -> get_pc X t = p.
Proof. intros s X t p H. rewrite (get_pc_update s X t p t H), Z.eqb_refl. reflexivity. Qed.

Lemma get_pc_update_neq : forall (s X : state) t p t', pcs X = update (pcs s) t p -> t <> t' ->
  get_pc X t' = get_pc s t'.
Proof.
  intros s X t p t' H Hn. rewrite (get_pc_update s X t p t' H). destruct (Z.eqb_spec t t'); [contradiction|reflexivity].
Qed.

Lemma get_pc_set_pc : forall s t p t', get_pc (set_pc s t p) t' = if t =? t' then p else get_pc s t'.
Proof. intros. apply get_pc_update. reflexivity. Qed.
Lemma get_pc_set_lock : forall s l t, get_pc (set_lock s l) t = get_pc s t.
Proof. reflexivity. Qed.
Lemma get_pc_set_entries : forall s l t, get_pc (set_entries s l) t = get_pc s t.
Proof. reflexivity. Qed.
Lemma get_pc_set_chans : forall s l t, get_pc (set_chans s l) t = get_pc s t.
Proof. reflexivity. Qed.

Lemma blocked_iff_event : forall s t, blocked s t = true <-> snd (step_task s t) = [EBlocked t].
Proof.
  intros s t. unfold blocked, step_task.
  destruct (get_pc s t) eqn:P; cbn; destruct (lock s) eqn:L; cbn;
    try (split; intro H; solve [reflexivity | discriminate H]).
  all: repeat match goal with
    | |- context [match ?r with nil => _ | cons _ _ => _ end] => destruct r; cbn
    | |- context [if ?b then _ else _] => destruct b; cbn
    | |- context [try_send ?a ?b ?c] => destruct (try_send a b c) as [[ | | ] ?]; cbn
    end.
  all: split; intro H; solve [reflexivity | discriminate H].
Qed.

Lemma blocked_indep_chans : forall s cs t, blocked (set_chans s cs) t = blocked s t.
Proof. reflexivity. Qed.

(** Inside a call a polled task does one of three things: it takes the free mutex
    ([acquire_step]), it passes one entry of the fan-out ([fan_step]), or it runs its last
    section under the mutex and gives it back ([release_step]). *)
Lemma acquire_step : forall s t p', acquired s (get_pc s t) = Some p' -> lock s = None ->
  get_pc (fst (step_task s t)) t = p' /\ lock (fst (step_task s t)) = Some t.
Proof.
  intros s t p' Ha Hl. unfold step_task. rewrite Ha, Hl.
  destruct (get_pc s t); cbn [fst]; (split; [apply (get_pc_update_eq s)|]); reflexivity.
Qed.

Lemma fan_step : forall s t tp d e rest pr, get_pc s t = PubFan tp d (e :: rest) pr ->
  exists pr', get_pc (fst (step_task s t)) t = PubFan tp d rest pr' /\
              lock (fst (step_task s t)) = lock s /\ entries (fst (step_task s t)) = entries s.
Proof.
  intros s t tp d e rest pr Hpc. unfold step_task. rewrite Hpc. cbn [acquired].
  destruct (e_topic e =? tp); [destruct (try_send _ _ _) as [[ | | ] cs]|]; cbn [fst];
    eexists; rewrite get_pc_set_pc, Z.eqb_refl; repeat split; reflexivity.
Qed.

(** the call returns, except that a publisher with closed subscribers noted goes on to wait for
    the mutex again *)
Lemma release_step : forall s t, hold_measure (get_pc s t) = 1%nat ->
  lock (fst (step_task s t)) = None /\
  (get_pc (fst (step_task s t)) t = Idle \/
   exists tp d pr, get_pc s t = PubFan tp d [] pr /\ get_pc (fst (step_task s t)) t = PruneWait pr).
Proof.
  intros s t Hm. unfold step_task.
  destruct (get_pc s t) as [ | | | | | | | |tp d [|e rest] [|x pr]| | ]; try discriminate Hm;
    cbn [acquired fst]; unfold release_to; rewrite get_pc_set_pc, Z.eqb_refl;
    (split; [reflexivity|]); try (left; reflexivity).
  right. exists tp, d, (x :: pr). split; reflexivity.
Qed.

Lemma progress : forall s t, get_pc s t <> Idle -> blocked s t = false ->
  get_pc (fst (step_task s t)) t <> get_pc s t.
Proof.
  intros s t Hne Hb. unfold blocked in Hb.
  destruct (get_pc s t) as [ |id tp c|id tp c|id|id| | |tp d|tp d [|e rest] prune|prune|prune] eqn:P;
    try congruence.
  (* a fan-out step shortens [rest] *)
  9: { destruct (fan_step s t tp d e rest prune P) as [pr' [H _]]. rewrite H.
       intro E. inversion E as [[E1 E2]]. apply (f_equal (@length entry)) in E1. cbn in E1. lia. }
  (* waiting and not blocked: the mutex is free and the counter becomes a holding one *)
  1, 3, 5, 7, 9: destruct (lock s) eqn:L; [discriminate Hb|];
    destruct (acquire_step s t _ ltac:(rewrite P; reflexivity) L) as [H _]; rewrite H; discriminate.
  (* last section: the counter becomes [Idle] or [PruneWait] *)
  all: destruct (release_step s t ltac:(rewrite P; reflexivity)) as [_ [H|[tp' [d' [pr' [_ H]]]]]];
    rewrite H; discriminate.
Qed.

Lemma holder_run : forall n s h, hold_measure (get_pc s h) = S n ->
  lock (poll_n (S n) s h) = None /\
  (get_pc (poll_n (S n) s h) h = Idle \/
   exists tp d rest pr pr', get_pc s h = PubFan tp d rest pr /\ get_pc (poll_n (S n) s h) h = PruneWait pr').
Proof.
  induction n as [|n IH]; intros s h Hm.
  - destruct (release_step s h Hm) as [L [H|[tp [d [pr [P H]]]]]]; (split; [exact L|]); [left; exact H|].
    right. exists tp, d, [], pr, pr. split; assumption.
  - destruct (get_pc s h) as [ | | | | | | | |tp d [|e rest] pr| | ] eqn:P; try discriminate Hm.
    destruct (fan_step s h tp d e rest pr P) as [pr1 [H _]].
    destruct (IH (fst (step_task s h)) h) as [L [I|[tp' [d' [rest' [pr2 [pr' [_ I]]]]]]]];
      [rewrite H; cbn in *; lia| |]; (split; [exact L|]); [left; exact I|].
    right. exists tp, d, (e :: rest), pr, pr'. split; [reflexivity|exact I].
Qed.

Lemma holder_releases : forall n s h, holding (get_pc s h) = true ->
  hold_measure (get_pc s h) = n -> lock (poll_n n s h) = None.
Proof.
  intros [|n] s h Hh Hm; [destruct (get_pc s h); discriminate|]. exact (proj1 (holder_run n s h Hm)).
Qed.

Lemma step_task_idle : forall s t, get_pc s t = Idle -> step_task s t = (s, []).
Proof. intros s t H. unfold step_task. rewrite H. reflexivity. Qed.

Lemma settle_is_run : forall k s t, settle k s t = run_from s (repeat (Step t) k).
Proof.
  induction k as [|k IH]; intros s t; cbn [settle repeat run_from]; [reflexivity|].
  cbn [step].
  destruct (get_pc s t) eqn:P.
  1: { rewrite (step_task_idle s t P). rewrite <- IH.
       destruct k; cbn [settle]; [reflexivity|]. rewrite P. reflexivity. }
  all: destruct (step_task s t) as [s1 o1]; rewrite IH; reflexivity.
Qed.

Lemma run_from_app : forall a b s,
  run_from s (a ++ b) =
  let '(s1, o1) := run_from s a in let '(s2, o2) := run_from s1 b in (s2, o1 ++ o2).
Proof.
  induction a as [|e a IH]; intros b s; cbn [app run_from].
  - destruct (run_from s b). reflexivity.
  - destruct (step s e) as [s1 o1]. rewrite IH.
    destruct (run_from s1 a) as [s2 o2]. destruct (run_from s2 b) as [s3 o3].
    rewrite app_assoc. reflexivity.
Qed.

Definition call_sched (s : state) (t : Z) (o : op) : list sev :=
  Start t o :: repeat (Step t) (call_fuel (fst (start s t o))).

Lemma run_call_is_run : forall s t o, run_call s t o = run_from s (call_sched s t o).
Proof.
  intros. unfold run_call, call_sched. cbn [run_from step].
  destruct (start s t o) as [s1 o1]. cbn [fst]. rewrite settle_is_run. reflexivity.
Qed.

Fixpoint calls_sched (s : state) (l : list (Z * op)) : list sev :=
  match l with
  | [] => []
  | (t, o) :: r => call_sched s t o ++ calls_sched (fst (run_call s t o)) r
  end.

Lemma run_calls_is_run : forall l s, run_calls s l = snd (run_from s (calls_sched s l)).
Proof.
  induction l as [|[t o] r IH]; intros s; cbn [run_calls calls_sched]; [reflexivity|].
  rewrite run_from_app, <- run_call_is_run.
  destruct (run_call s t o) as [s1 o1]. cbn [fst]. rewrite IH.
  destruct (run_from s1 (calls_sched s1 r)). reflexivity.
Qed.

Lemma poll_n_S : forall n s t, poll_n (S n) s t = poll_n n (fst (step_task s t)) t.
Proof. reflexivity. Qed.

Lemma poll_n_add : forall a b s t, poll_n (a + b) s t = poll_n b (poll_n a s t) t.
Proof. induction a as [|a IH]; intros b s t; cbn [poll_n Nat.add]; [reflexivity|apply IH]. Qed.

(** |entries| + 4: the call takes the mutex and runs to the release (at most 2 + |entries| polls);
    a publisher that noted closed subscribers does so once more to prune (2 polls). *)
Lemma call_alone_completes : forall s t, lock s = None -> waiting (get_pc s t) = true ->
  exists n, (n <= length (entries s) + 4)%nat /\
            get_pc (poll_n n s t) t = Idle /\ lock (poll_n n s t) = None.
Proof.
  intros s t Hl Hw.
  assert (Ha : exists p' k, acquired s (get_pc s t) = Some p' /\ hold_measure p' = S k /\ (k <= length (entries s))%nat).
  { destruct (get_pc s t); try discriminate Hw; eexists; eexists; (split; [reflexivity|]); cbn; split; try reflexivity; lia. }
  destruct Ha as [p' [k [Ha [Hm Hk]]]].
  destruct (acquire_step s t p' Ha Hl) as [P1 _].
  destruct (holder_run k (fst (step_task s t)) t) as [L2 H2]; [rewrite P1; exact Hm|].
  rewrite <- (poll_n_S (S k) s t) in *.
  destruct H2 as [I2|[tp' [d' [rest [pr [pr' [_ P2]]]]]]].
  - exists (S (S k)). split; [lia|]. split; assumption.
  - set (s2 := poll_n (S (S k)) s t) in *.
    destruct (acquire_step s2 t (PruneHold pr')) as [P3 _]; [rewrite P2; reflexivity|exact L2|].
    destruct (holder_run 0 (fst (step_task s2 t)) t) as [L4 [I4|[tp4 [d4 [rest4 [pr4 [pr4' [P4 _]]]]]]]];
      [rewrite P3; reflexivity| |rewrite P3 in P4; discriminate P4].
    exists (S (S k) + 2)%nat. split; [lia|]. rewrite poll_n_add. fold s2.
    rewrite (poll_n_S 1 s2 t). split; assumption.
Qed.

Lemma publish_alone_completes : forall s t tp d, lock s = None -> get_pc s t = PubWait tp d ->
  exists n, (n <= length (entries s) + 4)%nat /\
            get_pc (poll_n n s t) t = Idle /\ lock (poll_n n s t) = None.
Proof. intros s t tp d Hl Hpc. apply call_alone_completes; [exact Hl|rewrite Hpc; reflexivity]. Qed.
