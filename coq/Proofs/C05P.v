(** C05P.v — a NAK changes the accounting of at most one link, which held the
    number; the charge is exact; a remembered owner is exclusive. *)
From Srtla Require Import Base Constants Conn Run_Core BaseP ConnP CoreRunP Run_C02 SetP C02P Run_C05.
From Coq Require Import ZifyBool.

Lemma pos_of_find id l : forall i, pos_of id (map cid l) i = find_pos id l i.
Proof. induction l as [|c l IH]; intros i; cbn; [reflexivity|]. destruct (cid c =? id); [reflexivity|apply IH]. Qed.

Lemma find_pos_nth id l : forall i k, find_pos id l i = Some k -> exists j c, k = (i + j)%nat /\ nth_error l j = Some c.
Proof.
  intros i k H. apply ConnP.find_pos_nth in H as (Hle & c & Hn & _).
  exists (k - i)%nat, c. split; [lia|exact Hn].
Qed.

Lemma lsame_refl x : lsame x x = true.
Proof. unfold lsame. rewrite !Z.eqb_refl, zlist_eqb_refl. reflexivity. Qed.
Lemma all_unchanged_refl p : all_unchanged p p = true.
Proof. unfold all_unchanged. induction p; cbn; [reflexivity|]. rewrite lsame_refl. exact IHp. Qed.

Lemma others_unchanged_upd k f l : others_unchanged k (obsl l) (obsl (upd k f l)) = true.
Proof.
  unfold others_unchanged. apply forall_idx_F2i. eapply Forall2i_impl; [|apply (upd_rel f l k 0)]. cbn beta.
  intros j c c' [[-> _]|[_ ->]]; [rewrite Nat.eqb_refl; reflexivity|rewrite lsame_refl; apply orb_true_r].
Qed.

Lemma exact_charge_nak c seq now : Inv2 c -> log_mem seq (log c) = true ->
  exact_charge seq (obs_link c) (obs_link (fst (handle_nak c seq now))) = true.
Proof.
  intros HI Hm. pose proof HI as (Hn & Hi & _). destruct (nak_inv c seq now HI) as [_ Ek].
  unfold exact_charge. rewrite !o_keys_obs, Ek. unfold s_del. rewrite zlist_eqb_refl, andb_true_r.
  rewrite !o_nakcount_obs, !o_inflight_obs. change (o_window (obs_link ?x)) with (window x).
  unfold handle_nak. rewrite Hm. destruct (cong_nak_spec (cg c) (window c) now) as (Ec & Ew & _).
  destruct (cong_nak (cg c) (window c) now) as [[g w] o]. cbn [fst snd cg window in_flight] in *.
  rewrite Ec, Ew, Hi, (log_remove_len seq (log c) Hn Hm), !Z.eqb_refl. reflexivity.
Qed.

Definition J5 (m : mem) (s : state) : Prop :=
  SInv2 s /\ m_trk m = trk s /\ m_ids m = map cid (links s).

Theorem nak_step m s seq now : J5 m s ->
  nak_ok m seq now (obs_state s) (obs_state (step s (ONak seq now))) = true.
Proof.
  intros (HI & Et & Ei). unfold obs_state. cbn [step links].
  fold (obsl (links s)) (obsl (fst (attribute_nak (links s) (trk s) seq now))). unfold nak_ok.
  destruct (attribute_nak_cases (links s) (trk s) seq now) as [->|(k & c & Hn & Hm & -> & Ho)].
  { rewrite all_unchanged_refl. reflexivity. }
  apply orb_true_iff. right. apply (existsb_seq_witness _ _ k).
  { rewrite length_obsl. apply nth_error_Some. congruence. }
  cbn zeta. rewrite others_unchanged_upd. cbn [andb].
  unfold obsl. rewrite (nth_map_some _ _ _ _ _ Hn), (nth_map_some _ _ _ _ _ (nth_error_upd _ _ _ _ Hn)).
  rewrite o_keys_obs. fold (s_mem seq (kset c)). rewrite s_mem_kset, Hm. cbn [andb].
  assert (Hc : Inv2 c) by (unfold SInv2 in HI; rewrite Forall_forall in HI; apply HI; eapply nth_error_In; exact Hn).
  rewrite (exact_charge_nak c seq now Hc Hm). cbn [andb].
  (* the monitor's remembered owner is the model's *)
  unfold remembered. rewrite Et, Ei. destruct (trk_get (trk s) seq now); [rewrite pos_of_find|reflexivity].
  destruct (find_pos _ _ _); [subst; apply Nat.eqb_refl|reflexivity].
Qed.

Lemma step_trk s o : trk (step s o) =
  match o with
  | OTrack i seq now => match nth_error (links s) i with Some c => trk_insert (trk s) seq (cid c) now | None => trk s end
  | ORemoveConn i => match nth_error (links s) i with Some c => trk_remove_conn (trk s) (cid c) | None => trk s end
  | _ => trk s
  end.
Proof. destruct o; cbn [step on trk]; try reflexivity; destruct (nth_error _ _); reflexivity. Qed.

Theorem monitor_holds5 ids ops : Forall wf2 ops -> check_with mon_C05 (model_case ids ops) = 0%N.
Proof.
  intros Hwf. apply (check_with_model mon_C05 J5).
  - reflexivity.
  - cbn. repeat split; [apply init_inv2|]. unfold init. cbn. rewrite map_map. cbn. rewrite map_id. reflexivity.
  - intros m s o HJ Hin. pose proof HJ as (HI & Et & Ei).
    assert (Ho : wf2 o) by (rewrite Forall_forall in Hwf; auto).
    destruct (step_c02 s o Ho HI) as [HI' _].
    cbn [mon_C05 m_step]. rewrite obs_length_step, Nat.eqb_refl. cbn [negb]. unfold J5. rewrite (step_cids s o), (step_trk s o).
    (* only OTrack and ORemoveConn move the tracker, and the monitor's copy moves with it *)
    destruct o; cbn [fst snd]; auto.
    + rewrite Ei, nth_error_map. destruct (nth_error (links s) i); cbn [option_map fst snd m_ids m_trk]; rewrite ?Et; auto.
    + rewrite (nak_step m s seq now HJ). auto.
    + rewrite Ei, nth_error_map. destruct (nth_error (links s) i); cbn [option_map fst snd m_ids m_trk]; rewrite ?Et; auto.
Qed.
