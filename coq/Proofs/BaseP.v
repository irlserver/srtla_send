(** BaseP.v — facts about the helpers of Model/Base.v ([blen], the boolean list / option equalities)
    and the list lemmas the standard library lacks ([forallb], [Forall], [Forall2], [filter], [NoDup]),
    shared by all proof files. *)
From Srtla Require Import Base.

Lemma blen_nil {A} : blen (@nil A) = 0.
Proof. reflexivity. Qed.
Lemma blen_cons {A} (x : A) l : blen (x :: l) = 1 + blen l.
Proof. unfold blen. cbn [length]. lia. Qed.
Lemma blen_app {A} (a b : list A) : blen (a ++ b) = blen a + blen b.
Proof. unfold blen. rewrite app_length. lia. Qed.
Lemma blen_snoc {A} (l : list A) x : blen (l ++ [x]) = blen l + 1.
Proof. rewrite blen_app. reflexivity. Qed.
Lemma blen_map {A B} (f : A -> B) l : blen (map f l) = blen l.
Proof. unfold blen. rewrite map_length. reflexivity. Qed.
Lemma blen_repeat {A} (x : A) n : blen (repeat x n) = Z.of_nat n.
Proof. unfold blen. rewrite repeat_length. reflexivity. Qed.
Lemma blen_nonneg {A} (l : list A) : 0 <= blen l.
Proof. unfold blen. lia. Qed.

Lemma list_eqb_refl {A} (e : A -> A -> bool) : (forall x, e x x = true) -> forall l, list_eqb e l l = true.
Proof. intros H l. induction l as [|x l IH]; cbn; [reflexivity|]. rewrite H, IH. reflexivity. Qed.
Lemma list_eqb_eq {A} (e : A -> A -> bool) : (forall x y, e x y = true -> x = y) ->
  forall a b, list_eqb e a b = true -> a = b.
Proof.
  intros H a. induction a as [|x a IH]; intros [|y b] E; cbn in E; try discriminate; [reflexivity|].
  apply andb_true_iff in E. destruct E as [E1 E2]. rewrite (H _ _ E1), (IH _ E2). reflexivity.
Qed.
Lemma opt_eqb_refl {A} (e : A -> A -> bool) : (forall x, e x x = true) -> forall o, opt_eqb e o o = true.
Proof. intros H [x|]; cbn; [apply H|reflexivity]. Qed.

Lemma zlist_eqb_refl l : zlist_eqb l l = true.
Proof. apply list_eqb_refl, Z.eqb_refl. Qed.
Lemma zlist_eqb_eq a b : zlist_eqb a b = true <-> a = b.
Proof. split; [apply list_eqb_eq; intros x y; apply Z.eqb_eq|intros ->; apply zlist_eqb_refl]. Qed.
Lemma ozeqb_refl o : ozeqb o o = true.
Proof. apply opt_eqb_refl, Z.eqb_refl. Qed.

Lemma forallb_false_ex {A} (f : A -> bool) l : forallb f l = false -> exists x, In x l /\ f x = false.
Proof.
  induction l as [|a l IH]; cbn; [discriminate|]. destruct (f a) eqn:E; cbn.
  - intros H. destruct (IH H) as (x & ? & ?). exists x. auto.
  - intros _. exists a. auto.
Qed.

Lemma Forall_hd_tl {A} (P : A -> Prop) d l : P d -> Forall P l -> P (hd d l) /\ Forall P (tl l).
Proof. intros Hd H. destruct H; cbn; auto. Qed.

Lemma Forall2_nth_error_l {A B} (R : A -> B -> Prop) la lb : Forall2 R la lb ->
  forall i a, nth_error la i = Some a -> exists b, nth_error lb i = Some b /\ R a b.
Proof.
  induction 1 as [|x y la lb Hxy _ IH]; intros [|i] a E; cbn in *; try discriminate; [|exact (IH i a E)].
  inversion E; subst. exists y. split; [reflexivity|exact Hxy].
Qed.
Lemma Forall2_nth_error_r {A B} (R : A -> B -> Prop) la lb : Forall2 R la lb ->
  forall i b, nth_error lb i = Some b -> exists a, nth_error la i = Some a /\ R a b.
Proof.
  induction 1 as [|x y la lb Hxy _ IH]; intros [|i] b E; cbn in *; try discriminate; [|exact (IH i b E)].
  inversion E; subst. exists x. split; [reflexivity|exact Hxy].
Qed.
Lemma Forall2_reflexive {A} (R : A -> A -> Prop) : (forall x, R x x) -> forall l, Forall2 R l l.
Proof. intros H l. induction l; constructor; auto. Qed.
Lemma Forall2_length {A B} {R : A -> B -> Prop} {l l'} : Forall2 R l l' -> length l = length l'.
Proof. induction 1; cbn; congruence. Qed.
Lemma Forall2_map_r {A B} (R : A -> B -> Prop) (f : A -> B) : (forall x, R x (f x)) -> forall l, Forall2 R l (map f l).
Proof. intros H l. induction l; cbn [map]; constructor; auto. Qed.
Lemma Forall2_comp {A B C} (R : A -> B -> Prop) (S : B -> C -> Prop) (T : A -> C -> Prop) :
  (forall a b c, R a b -> S b c -> T a c) ->
  forall la lb lc, Forall2 R la lb -> Forall2 S lb lc -> Forall2 T la lc.
Proof.
  intros H la lb lc HR. revert lc. induction HR; intros lc HS; inversion HS; subst; constructor; eauto.
Qed.
Lemma Forall2_trans {A} (R : A -> A -> Prop) : (forall x y z, R x y -> R y z -> R x z) ->
  forall l1 l2 l3, Forall2 R l1 l2 -> Forall2 R l2 l3 -> Forall2 R l1 l3.
Proof. apply Forall2_comp. Qed.

Lemma filter_all {A} (f : A -> bool) l : (forall x, In x l -> f x = true) -> filter f l = l.
Proof.
  intros H. induction l as [|x l IH]; cbn; [reflexivity|].
  rewrite (H x (or_introl eq_refl)). f_equal. apply IH. intros y Hy. apply H. right. exact Hy.
Qed.
Lemma filter_filter {A} (f g : A -> bool) l : filter f (filter g l) = filter (fun x => g x && f x) l.
Proof.
  induction l as [|x l IH]; cbn; [reflexivity|].
  destruct (g x); cbn; [destruct (f x)|]; rewrite IH; reflexivity.
Qed.
Lemma filter_length_split {A} (f : A -> bool) l :
  (length (filter f l) + length (filter (fun x => negb (f x)) l) = length l)%nat.
Proof. induction l as [|x l IH]; cbn; [reflexivity|]. destruct (f x); cbn; lia. Qed.

Lemma NoDup_app {A} (a b : list A) : NoDup a -> NoDup b -> (forall x, In x a -> ~ In x b) -> NoDup (a ++ b).
Proof.
  induction 1 as [|x a Hx _ IH]; intros Hb Hd; cbn; [exact Hb|]. constructor.
  - rewrite in_app_iff. intros [H|H]; [tauto|]. exact (Hd x (or_introl eq_refl) H).
  - apply IH; [exact Hb|]. intros y Hy. apply Hd. right. exact Hy.
Qed.
Lemma NoDup_snoc {A} (l : list A) x : NoDup l -> ~ In x l -> NoDup (l ++ [x]).
Proof.
  intros Hl Hx. apply NoDup_app; [exact Hl|repeat constructor; intros []|].
  intros y Hy [<-|[]]. exact (Hx Hy).
Qed.
Lemma NoDup_map_inj {A B} (g : A -> B) l a b : NoDup (map g l) -> In a l -> In b l -> g a = g b -> a = b.
Proof.
  induction l as [|x l IH]; intros Hn Ha Hb E; [contradiction|].
  cbn [map] in Hn. inversion Hn as [|? ? Hx Hn']; subst.
  destruct Ha as [->|Ha], Hb as [->|Hb]; auto.
  - exfalso. apply Hx. rewrite E. apply in_map. exact Hb.
  - exfalso. apply Hx. rewrite <- E. apply in_map. exact Ha.
Qed.
Lemma NoDup_map_filter {A B} (g : A -> B) (f : A -> bool) l : NoDup (map g l) -> NoDup (map g (filter f l)).
Proof.
  induction l as [|x l IH]; cbn; intros H; [constructor|]. inversion H as [|? ? Hx Hn]; subst.
  destruct (f x); cbn; [constructor|]; auto.
  intros Hin. apply Hx. apply in_map_iff in Hin as (y & E & Hy).
  apply filter_In in Hy. rewrite <- E. apply in_map. tauto.
Qed.
