(** C08P.v — the monitor holds on every trace of the model (clauses 1,2,3,4,5,6), proved
    link by link on top of [step_rel]. *)
From Coq Require Import ZifyBool.
From Srtla Require Import Base BaseP Constants ConnP ReconnectP ReconStepP Run_C08.
Local Open Scope Z_scope.

Definition LInv (l : link) : Prop :=
  0 <= r_fail (l_rc l) /\ (forall x, l_lr l = Some x -> 0 <= x) /\
  (l_conn l = true -> r_est (l_rc l) <> 0) /\ 0 < l_to l.

Definition SyncL (m : mlink) (l : link) : Prop :=
  m_prev m = obs_link l /\ (m_ever m = true -> r_est (l_rc l) <> 0) /\ (l_sock l = false -> m_shut m = true) /\
  (* the monitor's own "last heard" never runs ahead of the stamp of a connected link *)
  (forall h, m_heard m = Some h -> l_conn l = true -> exists x, l_lr l = Some x /\ h <= x).

Definition op_pos (o : op) : Prop := forall t, op_time o = Some t -> 0 < t.
Definition op_refresh (o : op) : Prop := match o with OTick _ r _ _ => r = true | _ => True end.

Lemma LStep_inv : forall cfg pb o i l l', 0 < cfg -> op_pos o -> LInv l -> LStep cfg pb o i l l' -> LInv l'.
Proof.
  intros cfg pb o i l l' Hc Hp (H1 & H2 & H3 & H4) H. unfold LInv.
  destruct (LStep_cases _ _ _ _ _ _ H)
    as [lr Q T Hl|now -> ->|now -> ->| -> ->|now r d w l1 -> Q T _ _ X|now sel fl inf' gs l1 -> Q T _ ->].
  - rewrite (live_fail Q), (live_lr Q), (live_conn Q), (live_est Q). repeat split; auto; [|destruct T as [->| ->]; assumption].
    destruct (op_hears o i) as [now|] eqn:Ho; subst lr; [|exact H2].
    pose proof (Hp now (op_hears_time _ _ _ Ho)). intros x [= <-]. lia.
  - pose proof (Hp now eq_refl). cbn. repeat split; try lia.
    + intros x [= <-]. lia.
    + intros _. destruct (r_est (l_rc l) =? 0) eqn:E; lia.
  - cbn. repeat split; auto; discriminate.
  - cbn. auto.
  - pose proof (record_attempt_fail_nonneg (l_rc l1) now ltac:(rewrite (live_fail Q); exact H1)).
    assert (0 < l_to l1) by (rewrite T; destruct r; assumption).
    destruct X as [->| ->]; cbn; (repeat split; [|intros; discriminate..|assumption]);
      [apply Z.le_refl|assumption].
  - cbn. rewrite (live_fail Q). repeat split; try lia; try (intros; discriminate).
Qed.

Lemma LStep_est : forall cfg pb o i l l', LStep cfg pb o i l l' -> r_est (l_rc l) <> 0 -> r_est (l_rc l') <> 0.
Proof.
  intros cfg pb o i l l' H E.
  destruct (LStep_cases _ _ _ _ _ _ H)
    as [lr Q _ _|now _ ->|now _ ->| _ -> |now r d w l1 _ Q _ _ _ X|now sel fl inf' gs l1 _ Q _ _ ->];
    try exact E.
  - rewrite (live_est Q). exact E.
  - cbn. destruct (r_est (l_rc l) =? 0) eqn:Z; lia.
  - destruct X as [->| ->]; cbn; rewrite record_attempt_est, (live_est Q); exact E.
  - cbn. rewrite (live_est Q). exact E.
Qed.

Lemma LStep_gen : forall cfg pb o i l l', LStep cfg pb o i l l' -> l_sock l' = false ->
  l_gen l' = l_gen l /\ (l_sock l = false \/ o = OShut i).
Proof.
  intros cfg pb o i l l' H SK.
  destruct (LStep_cases _ _ _ _ _ _ H)
    as [lr Q _ _|now _ ->|now _ ->| -> -> |now r d w l1 _ Q _ _ _ X|now sel fl inf' gs l1 _ Q _ S ->];
    auto.
  - rewrite (live_sock Q) in SK. split; [exact (live_gen Q)|left; exact SK].
  - destruct X as [->| ->]; [discriminate SK|]. cbn in *. rewrite <- (live_gen Q), <- (live_sock Q). auto.
  - cbn. rewrite (live_gen Q). auto.
Qed.

(** clause 1: why a link can be torn down *)
Definition torn_link (l l' : link) : bool := negb (l_gen l' =? l_gen l) || (l_conn l && negb (l_conn l')).

Definition heard_nothing_l (l : link) (now cfg : Z) : Prop :=
  match l_lr l with
  | None => l_conn l = false
  | Some lr => cfg <= now - lr
  end.

Lemma torn_link_same : forall l l', l_gen l' = l_gen l -> l_conn l' = l_conn l -> torn_link l l' = false.
Proof. intros l l' G C. unfold torn_link. rewrite G, C, Z.eqb_refl. destruct (l_conn l); reflexivity. Qed.

Lemma LStep_torn : forall cfg pb o i l l', 0 < cfg -> op_refresh o -> LStep cfg pb o i l l' ->
  torn_link l l' = true ->
  match o with
  | OTick now _ _ _ => heard_nothing_l l now cfg
  | OData _ _ _ _ _ => l_gen l' = l_gen l /\ l_sock l = false
  | ORegErr j _ => Nat.eqb i j = true /\ l_gen l' = l_gen l
  | _ => False
  end.
Proof.
  intros cfg pb o i l l' Hc Hr H T.
  destruct (LStep_cases _ _ _ _ _ _ H)
    as [lr Q _ _|now -> ->|now -> ->| -> -> |now r d w l1 -> Q T1 TO _ _|now sel fl inf' gs l1 -> Q _ S ->].
  - rewrite (torn_link_same l l' (live_gen Q) (live_conn Q)) in T. discriminate.
  - unfold torn_link in T. cbn in T. rewrite Z.eqb_refl, andb_false_r in T. discriminate.
  - split; [apply Nat.eqb_refl|reflexivity].
  - rewrite torn_link_same in T by reflexivity. discriminate.
  - cbn in Hr. subst r.
    pose proof (timed_out_silent l1 now ltac:(rewrite T1; exact Hc) TO) as N.
    unfold heard_nothing_l in *. rewrite (live_conn Q), (live_lr Q), T1 in N. exact N.
  - split; [exact (live_gen Q)|exact S].
Qed.

(** clause 2: attempts happen only in ticks and are spaced *)
Lemma LStep_last : forall cfg pb o i l l', LInv l -> LStep cfg pb o i l l' ->
  r_last (l_rc l') <> r_last (l_rc l) ->
  exists now r d w, o = OTick now r d w /\ r_last (l_rc l') = now /\
    (r_last (l_rc l) = 0 \/ (if r_est (l_rc l) =? 0 then 1000 else 5000) <= now - r_last (l_rc l)).
Proof.
  intros cfg pb o i l l' [H1 _] H N.
  destruct (LStep_cases _ _ _ _ _ _ H)
    as [lr Q _ _|now _ ->|now _ ->| _ -> |now r d w l1 -> Q _ _ SA X|now sel fl inf' gs l1 _ Q _ _ ->];
    try (destruct N; reflexivity).
  - destruct N. exact (live_last Q).
  - exists now, r, d, w. split; [reflexivity|]. split.
    + destruct X as [->| ->]; [reflexivity|apply record_attempt_last].
    + pose proof (should_attempt_spacing (l_rc l1) now ltac:(rewrite (live_fail Q); exact H1) SA) as SP.
      rewrite (live_last Q), (live_est Q) in SP. exact SP.
  - destruct N. exact (live_last Q).
Qed.

(** clause 3: a dead link whose last attempt is 120 s old is retried by the next tick *)
Lemma LStep_forever : forall cfg l l' now refresh dgs ws i,
  LInv l -> LStep cfg false (OTick now refresh dgs ws) i l l' ->
  l_conn l = false -> l_lr l = None -> 120000 <= now - r_last (l_rc l) -> r_grace (l_rc l) < now ->
  r_last (l_rc l') = now.
Proof.
  intros cfg l l' now refresh dgs ws i [H1 _] H C L D G.
  destruct (LStep_tick _ _ _ _ _ _ _ _ _ H) as (l1 & classic & dg & w & -> & Q & _ & _ & Gr).
  specialize (Gr eq_refl).
  assert (TO : is_timed_out l1 now = true)
    by (apply dead_link_timed_out;
        [rewrite (live_conn Q); exact C|rewrite (live_lr Q); exact L|rewrite Gr; intros _; apply Z.lt_le_incl, G]).
  assert (SA : should_attempt (l_rc l1) now = true)
    by (apply should_attempt_due;
        [rewrite (live_fail Q); exact H1|rewrite Gr; intros _; exact G|rewrite (live_last Q); exact D]).
  destruct (tick_link_state_cases l1 now classic dg w) as [[_ [_ [X|X]]]|[[_ [F _]]|[F _]]]; try congruence.
  - rewrite X. reflexivity.
  - rewrite X. cbn. apply record_attempt_last.
Qed.

(** clauses 5 and 6: what a REG3 leaves *)
Lemma LStep_reg3 : forall cfg pb j now i l l', LStep cfg pb (OReg3 j now) i l l' -> Nat.eqb i j = true ->
  l_conn l' = true /\ l_inf l' = 0 /\ l_ph l' = PWarm 0 now /\ l_lr l' = Some now /\ l_win l' = WINDOW_DEFAULT.
Proof. intros cfg pb j now i l l' H E. cbn [LStep] in H. unfold on_i in H. rewrite E in H. subst. cbn. tauto. Qed.

Lemma clause1_ok : forall cfg pb o i m l l', 0 < cfg -> op_refresh o -> LInv l -> SyncL m l ->
  LStep cfg pb o i l l' -> c_teardown o i m (obs_link l') cfg = true.
Proof.
  intros cfg pb o i m l l' Hc Hr HI [SP [_ [SS SH]]] H. unfold c_teardown. rewrite SP.
  change (torn_down (obs_link l) (obs_link l')) with (torn_link l l').
  destruct (torn_link l l') eqn:T; [|reflexivity].
  pose proof (LStep_torn cfg pb o i l l' Hc Hr H T) as F.
  destruct o; try contradiction.
  - (* the stamp of the link is silent by [F]; the monitor's own record is behind that stamp *)
    unfold heard_nothing, heard_nothing_mon, heard_nothing_l in *. cbn [b_lr b_conn obs_link].
    destruct (l_lr l) as [x|] eqn:L; [|rewrite F; reflexivity].
    pose proof (proj1 (proj2 HI) x L) as Hx0. cbn [oz]. replace (x =? -1) with false by (clear - Hx0; lia).
    rewrite (proj2 (Z.leb_le _ _) F).
    destruct (l_conn l) eqn:C; [|reflexivity]. destruct (m_heard m) as [h|]; [|reflexivity].
    destruct (SH h eq_refl eq_refl) as (x' & [= <-] & Hx). apply Z.leb_le. clear - F Hx. lia.
  - destruct F as [F1 F2]. unfold gen_changed. cbn [b_gen obs_link]. rewrite F2, Z.eqb_refl. rewrite Nat.eqb_sym. rewrite F1. reflexivity.
  - destruct F as [F1 F2]. unfold gen_changed. cbn [b_gen obs_link]. rewrite F1, Z.eqb_refl, (SS F2). reflexivity.
Qed.

Definition heard_next (o : op) (i : nat) (m : mlink) (q : lobs) : option Z :=
  let hit := match op_on o with Some j => Nat.eqb j i | None => false end in
  if torn_down (m_prev m) q then None
  else match o with
       | OKeepalive _ now _ | OInbound _ now _ | OReg3 _ now => if hit then Some now else m_heard m
       | ORegErr _ _ => if hit then None else m_heard m
       | _ => m_heard m
       end.

Lemma mon_link_heard : forall o cfg pb i m q w, m_heard (snd (mon_link o cfg pb i m q w)) = heard_next o i m q.
Proof. intros. unfold mon_link. destruct (env_step o i m q w) as [[[rep envok] await] due]. reflexivity. Qed.

Lemma heard_next_some : forall o i m q h, heard_next o i m q = Some h ->
  match op_hears o i with Some now => h = now | None => m_heard m = Some h end.
Proof.
  unfold heard_next. intros o i m q h E. destruct (torn_down (m_prev m) q); [discriminate|].
  destruct o; cbn in *; try exact E; rewrite Nat.eqb_sym in E; destruct (Nat.eqb i i0); congruence.
Qed.

Lemma heard_sync : forall cfg pb o i m l l', SyncL m l -> LStep cfg pb o i l l' ->
  forall h, heard_next o i m (obs_link l') = Some h -> l_conn l' = true -> exists x, l_lr l' = Some x /\ h <= x.
Proof.
  intros cfg pb o i m l l' (_ & _ & _ & SH) H h E C. apply heard_next_some in E.
  (* a teardown leaves the link not connected; otherwise the stamp is kept, or is the op's own clock *)
  destruct (LStep_cases _ _ _ _ _ _ H)
    as [lr Q _ Hl|now -> ->|now _ ->| -> -> |now r d w l1 _ _ _ _ _ [->| ->]|now sel fl inf' gs l1 _ _ _ _ ->];
    try discriminate C.
  - rewrite (live_conn Q) in C. rewrite (live_lr Q). destruct (op_hears o i); subst.
    + eexists. split; [reflexivity|lia].
    + exact (SH h E C).
  - cbn in E. rewrite Nat.eqb_refl in E. exists now. split; [reflexivity|lia].
  - exact (SH h E C).
Qed.

Lemma clause2_ok : forall cfg pb o i m l l', LInv l -> SyncL m l ->
  LStep cfg pb o i l l' -> c_spacing o m (obs_link l') = true.
Proof.
  intros cfg pb o i m l l' HI [SP [SE _]] H. unfold c_spacing. rewrite SP. cbn [b_last obs_link].
  destruct (r_last (l_rc l') =? r_last (l_rc l)) eqn:E; [reflexivity|].
  destruct (LStep_last cfg pb o i l l' HI H ltac:(lia)) as [now [r [d [w [-> [L S]]]]]].
  rewrite L, Z.eqb_refl. cbn [andb]. unfold T_RETRY_GAP, T_INIT_GAP.
  destruct (m_ever m) eqn:EV.
  - specialize (SE eq_refl). assert (r_est (l_rc l) =? 0 = false) as Z by lia. rewrite Z in S. lia.
  - destruct (r_est (l_rc l) =? 0); lia.
Qed.

Lemma clause3_ok : forall cfg pb o i m l l', LInv l -> SyncL m l ->
  LStep cfg pb o i l l' -> c_forever o pb m (obs_link l') = true.
Proof.
  intros cfg pb o i m l l' HI [SP _] H. unfold c_forever. rewrite SP.
  destruct o; try reflexivity. cbn [b_conn b_lr b_last b_grace obs_link].
  destruct (negb pb && negb (l_conn l) && (oz (l_lr l) =? -1) && negb (r_last (l_rc l) =? 0)
            && (T_BACKOFF_CAP <=? now - r_last (l_rc l)) && (r_grace (l_rc l) <? now)) eqn:C; [|reflexivity].
  unfold T_BACKOFF_CAP in C.
  destruct pb; [discriminate|]. destruct (l_conn l) eqn:CN; [discriminate|].
  destruct (l_lr l) as [x|] eqn:L; [pose proof (proj1 (proj2 HI) x L); cbn in C; lia|].
  rewrite (LStep_forever cfg l l' now refresh dgs ws i HI H CN L); cbn in C; lia.
Qed.

Lemma clause56_ok : forall cfg pb o i m l l', LStep cfg pb o i l l' ->
  c_rejoin o i (obs_link l') = true /\ c_rejoin_window o i m (obs_link l') = true.
Proof.
  intros cfg pb o i m l l' H. unfold c_rejoin, c_rejoin_window. destruct o; try (split; reflexivity).
  rewrite (Nat.eqb_sym i0 i). destruct (Nat.eqb i i0) eqn:E; [|split; reflexivity].
  destruct (LStep_reg3 cfg pb i0 now i l l' H E) as [A [B [C [D W]]]].
  cbn [b_conn b_inf b_ph b_probes b_entered b_lr b_win obs_link]. rewrite A, B, C, D, W. cbn.
  rewrite !Z.eqb_refl. split; [reflexivity|]. destruct (m_torn m); reflexivity.
Qed.

Lemma mon_link_ok : forall cfg pb o i m l l' w,
  0 < cfg -> op_pos o -> op_refresh o -> LInv l -> SyncL m l -> LStep cfg pb o i l l' ->
  core_ok (fst (mon_link o cfg pb i m (obs_link l') w)) = true /\
  SyncL (snd (mon_link o cfg pb i m (obs_link l') w)) l'.
Proof.
  intros cfg pb o i m l l' w Hc Hp Hr HI HS H.
  pose proof (clause1_ok cfg pb o i m l l' Hc Hr HI HS H) as C1.
  pose proof (clause2_ok cfg pb o i m l l' HI HS H) as C2.
  pose proof (clause3_ok cfg pb o i m l l' HI HS H) as C3.
  destruct (clause56_ok cfg pb o i m l l' H) as [C5 C6].
  pose proof (heard_sync cfg pb o i m l l' HS H) as HH.
  destruct (LStep_inv cfg pb o i l l' Hc Hp HI H) as (_ & _ & HE & _).
  unfold mon_link. destruct (env_step o i m (obs_link l') w) as [[[rep envok] await] due].
  rewrite C1, C2, C3, C5, C6. cbn [negb fst snd]. split.
  - destruct (c_bound o rep envok (obs_link l')); reflexivity.
  - destruct HS as (SP & SE & SS & _). unfold SyncL. cbn [m_prev m_ever m_shut m_heard b_conn obs_link].
    repeat split; [| |exact HH].
    + destruct (m_ever m); [intros _; exact (LStep_est cfg pb o i l l' H (SE eq_refl))|exact HE].
    + intros SK. rewrite SP. unfold gen_changed. cbn [b_gen obs_link].
      destruct (LStep_gen cfg pb o i l l' H SK) as [-> [S0| ->]]; rewrite Z.eqb_refl; cbn [negb op_on].
      * rewrite (SS S0). destruct o; try reflexivity. apply orb_true_r.
      * rewrite Nat.eqb_refl. reflexivity.
Qed.

Definition Inv (s : state) : Prop := 0 < cfg_to s /\ Forall LInv (links s).
Definition Sync (ms : mstate) (s : state) : Prop :=
  Forall2 SyncL (ms_links ms) (links s) /\ ms_cfg ms = cfg_to s /\ ms_probing ms = is_probing (rg s).

Lemma mon_links_ok : forall cfg pb o i la lb, Forall2i (LStep cfg pb o) i la lb ->
  forall ms ws, 0 < cfg -> op_pos o -> op_refresh o -> Forall2 SyncL ms la -> Forall LInv la ->
  forallb core_ok (map fst (mon_links o cfg pb i ms (map obs_link lb) ws)) = true /\
  Forall2 SyncL (map snd (mon_links o cfg pb i ms (map obs_link lb) ws)) lb.
Proof.
  intros cfg pb o i la lb F. induction F as [i|i a b la lb HP F IH]; intros ms ws Hc Hp Hr HS HI.
  - inversion HS; subst. split; constructor.
  - inversion HS as [|m a' mt la' S1 S2]; subst. inversion HI as [|a' la' I1 I2]; subst.
    cbn [map mon_links forallb].
    destruct (mon_link_ok cfg pb o i m a b (hd [] ws) Hc Hp Hr I1 S1 HP) as [-> K2].
    destruct (IH mt (tl ws) Hc Hp Hr S2 I2) as [-> J2].
    split; [reflexivity|constructor; assumption].
Qed.

Lemma step_cfg_pos : forall s o, 0 < cfg_to s -> 0 < cfg_to (fst (step s o)).
Proof.
  intros s o H. destruct o; cbn [step]; try exact H.
  - cbn. unfold clamp. change CONN_TIMEOUT_MS_MIN with 1000. change CONN_TIMEOUT_MS_MAX with 60000. lia.
  - destruct (_ && _); exact H.
  - destruct (step_tick_spec s now refresh dgs ws) as (ls2 & g & af & wire & err & -> & _). exact H.
  - destruct (i <? length (links s))%nat; exact H.
  - destruct (i <? length (links s))%nat; exact H.
  - destruct (nth_error (links s) i); [|exact H]. destruct (ngp_immediate _ i now); exact H.
  - destruct (i <? length (links s))%nat; exact H.
  - destruct (g_hasconn (rg s));
      match goal with |- context [match ?p with Some _ => _ | None => _ end] => destruct p as [k|] end;
      try exact H; destruct (k <? length (links s))%nat; exact H.
Qed.

Lemma step_inv : forall s o, op_pos o -> Inv s -> Inv (fst (step s o)).
Proof.
  intros s o Hp [Hc HI]. split; [apply step_cfg_pos; exact Hc|].
  pose proof (step_rel s o) as F. induction F as [|i a b la lb HP F IH]; [constructor|].
  inversion HI; subst. constructor; [exact (LStep_inv _ _ _ _ _ _ Hc Hp H1 HP)|auto].
Qed.

(** clause 4 (housekeeping errors only when no uplink is alive): a connected link heard from
    within the timeout goes through the pass on the alive branch *)
Lemma LStep_alive : forall cfg pb now dgs ws i l l' x, 0 < cfg ->
  LStep cfg pb (OTick now true dgs ws) i l l' ->
  l_conn l = true -> l_lr l = Some x -> now - x < cfg ->
  is_timed_out l' now = false /\ live l' = live l /\ l_inf l' = l_inf l.
Proof.
  intros cfg pb now dgs ws i l l' x Hc H C L D.
  destruct (LStep_tick _ _ _ _ _ _ _ _ _ H) as (l1 & classic & dg & w & -> & A1 & A2 & A3 & _).
  pose proof (live_conn A1) as Ac. pose proof (live_lr A1) as Al.
  assert (AL : is_timed_out l1 now = false) by (apply (alive_when_heard l1 now x); try congruence; lia).
  destruct (tick_link_state_cases l1 now classic dg w) as [(F & _)|[(F & _)|(_ & X1 & X2 & X3)]]; try congruence.
  split; [|split; congruence]. pose proof (live_conn X1) as Xc. pose proof (live_lr X1) as Xl.
  apply (alive_when_heard _ now x); try congruence; lia.
Qed.

Lemma count_alive_zero : forall ls now l, count_alive ls now = 0 -> In l ls -> is_timed_out l now = true.
Proof.
  intros ls now l H HIn. unfold count_alive, blen in H.
  destruct (is_timed_out l now) eqn:E; [reflexivity|exfalso].
  assert (In l (filter (fun l0 => negb (is_timed_out l0 now)) ls)) as HF by (apply filter_In; rewrite E; auto).
  destruct (filter _ ls); [contradiction|discriminate H].
Qed.

Lemma step_tick_err : forall s now refresh dgs ws l', In l' (links (fst (step_tick s now refresh dgs ws))) ->
  is_timed_out l' now = false -> o_err (snd (step_tick s now refresh dgs ws)) = false.
Proof.
  intros s now refresh dgs ws l'.
  destruct (step_tick_spec s now refresh dgs ws) as (ls2 & g & af & wire & [|] & -> & _ & Z); [|reflexivity].
  intros HIn AL. rewrite (count_alive_zero ls2 now l' (Z eq_refl) HIn) in AL. discriminate.
Qed.

Lemma survivors_ok : forall s ms o, 0 < cfg_to s -> Sync ms s -> op_refresh o ->
  c_survivors o (ms_cfg ms) (ms_links ms) (obs_glob (fst (step s o)) (o_err (snd (step s o)))) = true.
Proof.
  intros s ms o Hc [S1 [S2 _]] Hr. destruct o; try reflexivity.
  cbn in Hr. subst refresh. unfold c_survivors. cbn [q_err obs_glob step].
  destruct (o_err (snd (step_tick s now true dgs ws))) eqn:E; [|reflexivity]. cbn [andb].
  apply negb_true_iff. apply not_true_is_false. intros EX.
  apply existsb_exists in EX. destruct EX as [m [HIn HP]].
  destruct (In_nth_error _ _ HIn) as [k Hm].
  destruct (Forall2_nth_error_l _ _ _ S1 k m Hm) as (l & Hl & SP & _).
  destruct (Forall2i_nth _ _ _ _ (step_rel s (OTick now true dgs ws)) _ _ Hl) as (l' & Hl' & ST).
  rewrite SP, S2 in HP. cbn [b_conn b_lr obs_link] in HP.
  destruct (l_conn l) eqn:C; [|discriminate]. cbn [andb] in HP.
  destruct (l_lr l) as [x|] eqn:L; [|cbn in HP; discriminate]. cbn [oz] in HP.
  destruct (LStep_alive _ _ _ _ _ _ _ _ x Hc ST C L ltac:(lia)) as [AL _].
  rewrite (step_tick_err s now true dgs ws l' (nth_error_In _ _ Hl') AL) in E. discriminate.
Qed.

Definition all_refresh (ops : list op) : bool :=
  forallb (fun o => match o with OTick _ r _ _ => r | _ => true end) ops.

Lemma wf_from_pos : forall t o r, 0 < t -> wf_from t (o :: r) = true ->
  op_pos o /\ exists t', 0 < t' /\ wf_from t' r = true.
Proof.
  intros t o r Ht H. cbn [wf_from] in H. unfold op_pos. destruct (op_time o) as [x|].
  - apply andb_true_iff in H. destruct H as [H1 H2]. split.
    + intros t1 E. inversion E; subst. lia.
    + exists x. split; [lia|exact H2].
  - split; [intros t1 E; discriminate|]. exists t. auto.
Qed.

Theorem monitor_run : forall ops s ms t,
  0 < t -> wf_from t ops = true -> all_refresh ops = true -> Inv s -> Sync ms s ->
  forallb (forallb core_ok) (mon_codes ms (map obs_step (run_from s ops))) = true.
Proof.
  induction ops as [|o r IH]; intros s ms t Ht Hw Hr HI HS; [reflexivity|].
  destruct (wf_from_pos t o r Ht Hw) as [Hp [t' [Ht' Hw']]].
  cbn [all_refresh forallb] in Hr. apply andb_true_iff in Hr. destruct Hr as [Hr1 Hr2].
  assert (Hr0 : op_refresh o) by (destruct o; cbn; auto).
  cbn [run_from]. rewrite (surjective_pairing (step s o)). cbn [map mon_codes obs_step].
  pose proof (step_inv s o Hp HI) as HI'.
  destruct HI as [Hc HL]. pose proof (survivors_ok s ms o Hc HS Hr0) as SV.
  destruct HS as [S1 [S2 S3]].
  destruct (mon_links_ok _ _ o 0 _ _ (step_rel s o) (ms_links ms) (o_wire (snd (step s o))) Hc Hp Hr0 S1 HL)
    as [K1 K2].
  unfold mon_step. cbn [s_op s_links s_glob s_wire]. rewrite SV, S2, S3.
  cbn [forallb]. rewrite forallb_app, K1.
  apply (IH _ _ t' Ht' Hw' Hr2 HI'). split; [exact K2|split; reflexivity].
Qed.
