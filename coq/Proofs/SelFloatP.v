(** Float facts about the scheduler's score factors:
    RTT bonus in [1, 1.03], quality multiplier in [(1-0.5)*0.7, 1.1*1.03], CC soft-cap
    factor in [0.1, 1], and every score of a connected well-formed link is >= 0 (hence
    strictly above the selection floor -1.0).  The only fact used about libm's exp is
    [exp_okb]: its value lies in [0, 1]. *)
From Coq Require Import ZArith Reals Floats Lra Lia Bool.
From Srtla Require Import Base Constants FConstants Select Run_Sel FloatP.
From Flocq Require Import Core BinarySingleNaN PrimFloat.
Local Open Scope Z_scope.

(** [fin_c] closes [ffin c], [fle_c] closes [fle c d], for closed floats [c], [d], by evaluation *)
Ltac fin_c := apply ffin_b; vm_compute; reflexivity.
Ltac fle_c := unfold fle; vm_compute; reflexivity.

Definition bnd (h x : PrimFloat.float) : Prop := fle 0%float x /\ fle x h.

Lemma bnd_mul hx hy x y :
  ffin (hx * hy)%float -> bnd hx x -> bnd hy y -> bnd (hx * hy)%float (x * y)%float.
Proof.
  intros F (X0 & X1) (Y0 & Y1).
  destruct (mul_mono 0%float hx 0%float hy x y F) as (_ & _ & H3 & H4 & _); auto; try fle_c. now split.
Qed.

Lemma f64_min_le d b :
  PrimFloat.is_nan b = false -> PrimFloat.is_nan (f64_min d b) = false /\ fle (f64_min d b) b.
Proof.
  intros Nb. unfold f64_min.
  destruct (PrimFloat.is_nan d) eqn:Nd.
  - split; auto. now apply fle_refl.
  - rewrite Nb. destruct (b <? d)%float eqn:L.
    + split; auto. now apply fle_refl.
    + split; auto. now apply not_ltb_fle.
Qed.

Lemma f64_max_between m o b :
  PrimFloat.is_nan m = false -> fle m b -> fle o b ->
  fle o (f64_max m o) /\ fle (f64_max m o) b.
Proof.
  intros Nm Hm Ho. pose proof (fle_not_nan_l _ _ Ho) as No. unfold f64_max. rewrite Nm, No.
  destruct (m <? o)%float eqn:L.
  - split; auto. now apply fle_refl.
  - split; auto. now apply not_ltb_fle.
Qed.

Lemma f64_max0_not_nan a : PrimFloat.is_nan (f64_max a 0%float) = false.
Proof.
  unfold f64_max. destruct (PrimFloat.is_nan a) eqn:Na; [reflexivity|].
  change (PrimFloat.is_nan 0%float) with false. cbv iota.
  now destruct (a <? 0)%float.
Qed.

Lemma f64_clamp_range lo hi x :
  ffin lo -> ffin hi -> fle lo hi -> PrimFloat.is_nan x = false ->
  fle lo (f64_clamp lo hi x) /\ fle (f64_clamp lo hi x) hi.
Proof.
  intros Fl Fh Hlh Nx. unfold f64_clamp.
  destruct (x <? lo)%float eqn:L1.
  - split; auto. apply fle_refl, ffin_not_nan, Fl.
  - destruct (hi <? x)%float eqn:L2.
    + split; auto. apply fle_refl, ffin_not_nan, Fh.
    + split; apply not_ltb_fle; auto using ffin_not_nan.
Qed.

Lemma rtt_bonus_range c : fle 1%float (rtt_bonus c) /\ fle (rtt_bonus c) MAX_RTT_BONUS.
Proof.
  unfold rtt_bonus. destruct (smooth_rtt c <=? 0)%float.
  - split; fle_c.
  - set (d := (RTT_BONUS_THRESHOLD_MS / f64_max (smooth_rtt c) MIN_RTT_MS)%float).
    destruct (f64_min_le d MAX_RTT_BONUS) as (N & L); [reflexivity|].
    apply f64_max_between; auto; fle_c.
Qed.

Lemma q_range_iff q : q_rangeb q = true <-> fle Q_LO q /\ fle q Q_HI.
Proof. unfold q_rangeb, fle. now rewrite andb_true_iff. Qed.
Lemma exp_ok_iff e : exp_okb e = true <-> fle 0%float e /\ fle e 1%float.
Proof. unfold exp_okb, fle. now rewrite andb_true_iff. Qed.

Lemma nak_mult_range e (burst : bool) :
  exp_okb e = true ->
  let mult := (1 - MAX_PENALTY * e)%float in
  let qm := if burst then (mult * NAK_BURST_PENALTY)%float else mult in
  fle Q_LO qm /\ fle qm PERFECT_CONNECTION_BONUS.
Proof.
  intros He. apply exp_ok_iff in He. destruct He as (E0 & E1). cbv zeta.
  destruct (mul_mono MAX_PENALTY MAX_PENALTY 0%float 1%float MAX_PENALTY e) as (Fp & P1 & P2 & _ & _);
    try assumption; try fle_c; try fin_c.
  destruct (sub_mono 1%float (MAX_PENALTY * 0)%float (MAX_PENALTY * 1)%float (MAX_PENALTY * e)%float)
    as (Fm & M1 & M2); try assumption; try fin_c.
  destruct burst.
  - destruct (mul_mono (1 - MAX_PENALTY * 1)%float (1 - MAX_PENALTY * 0)%float
                       NAK_BURST_PENALTY NAK_BURST_PENALTY
                       (1 - MAX_PENALTY * e)%float NAK_BURST_PENALTY) as (Fr & R1 & R2 & _ & _);
      try assumption; try fle_c; try fin_c.
    split.
    + apply (fle_trans _ ((1 - MAX_PENALTY * 1) * NAK_BURST_PENALTY)%float); auto; fle_c.
    + apply (fle_trans _ ((1 - MAX_PENALTY * 0) * NAK_BURST_PENALTY)%float); auto; fle_c.
  - split.
    + apply (fle_trans _ (1 - MAX_PENALTY * 1)%float); auto; fle_c.
    + apply (fle_trans _ (1 - MAX_PENALTY * 0)%float); auto; fle_c.
Qed.

Theorem calc_quality_range c now e :
  exp_okb e = true -> q_rangeb (calc_quality c now e) = true.
Proof.
  intros He. unfold calc_quality.
  destruct (ssub now (l_est c) <? STARTUP_GRACE_PERIOD_MS).
  { destruct (l_nakcnt c =? 0); vm_compute; reflexivity. }
  apply q_range_iff.
  set (qm := match time_since_last_nak c now with Some _ => _ | None => _ end).
  assert (Hq : fle Q_LO qm /\ fle qm PERFECT_CONNECTION_BONUS).
  { subst qm. destruct (time_since_last_nak c now) as [age|].
    - apply (nak_mult_range e ((NAK_BURST_THRESHOLD <=? l_nakburst c) && (age <? NAK_BURST_MAX_AGE_MS)) He).
    - destruct (l_nakcnt c =? 0); split; fle_c. }
  destruct Hq as (Q1 & Q2). destruct (rtt_bonus_range c) as (B1 & B2).
  destruct (mul_mono Q_LO PERFECT_CONNECTION_BONUS 1%float MAX_RTT_BONUS qm (rtt_bonus c)) as (Fr & R1 & R2 & _ & _);
    try assumption; try fle_c; try fin_c.
  split.
  - apply (fle_trans _ (Q_LO * 1)%float); auto; fle_c.
  - exact R2.
Qed.

Lemma of_u64_pos n : 1 <= n <= u64_max ->
  ffin (f64_of_u64 n) /\ (0 <? f64_of_u64 n)%float = true.
Proof.
  intros Hn. unfold f64_of_u64, f64_of_nat63. fold (ofZ n).
  destruct (n <? 9223372036854775808) eqn:L.
  - apply Z.ltb_lt in L. destruct (ofZ_R n) as (F & _); [lia|]. split; auto.
    apply (ltb_fle_trans _ (ofZ 1)); [reflexivity | apply ofZ_mono; lia].
  - apply Z.ltb_ge in L. unfold u64_max, two64 in Hn.
    set (h := Z.lor (n / 2) (n mod 2)). fold (ofZ h).
    (* [h] has the bits of [n / 2] (63 of them, the top one set) and of [n mod 2] *)
    assert (Hh : 1 <= h < 9223372036854775808).
    { subst h. assert (A : 4611686018427387904 <= n / 2 < 9223372036854775808).
      { split; [apply Z.div_le_lower_bound | apply Z.div_lt_upper_bound]; lia. }
      assert (B : 0 <= n mod 2 < 2) by (apply Z.mod_pos_bound; lia).
      assert (P : 0 <= Z.lor (n / 2) (n mod 2)) by (apply Z.lor_nonneg; lia).
      assert (N : Z.lor (n / 2) (n mod 2) <> 0) by (rewrite Z.lor_eq_0_iff; lia).
      split; [lia|].
      change 9223372036854775808 with (2 ^ 63). apply Z.log2_lt_pow2; [lia|].
      rewrite Z.log2_lor by lia. apply Z.max_lub_lt.
      - apply Z.log2_lt_pow2; lia.
      - destruct (Z.eq_dec (n mod 2) 0) as [->|]; [simpl; lia|]. apply Z.log2_lt_pow2; lia. }
    destruct (mul_mono (ofZ 1) (ofZ 9223372036854775807) 2%float 2%float (ofZ h) 2%float)
      as (F & L1 & _ & _ & F1);
      [fin_c | fle_c | apply ofZ_mono; lia | apply ofZ_mono; lia | fle_c | fle_c | fle_c | ].
    split; auto.
    apply (ltb_fle_trans _ (ofZ 1 * 2)%float); [reflexivity | exact L1].
Qed.

Theorem soft_cap_range c :
  0 <= l_cct c <= u64_max ->
  fle CC_SOFT_CAP_FLOOR (cc_soft_cap_multiplier c) /\ fle (cc_soft_cap_multiplier c) 1%float.
Proof.
  intros Hc. unfold cc_soft_cap_multiplier.
  destruct (l_cct c =? 0) eqn:E0; [split; fle_c|].
  destruct (l_bps c <=? 0)%float; [split; fle_c|].
  apply Z.eqb_neq in E0. destruct (of_u64_pos (l_cct c)) as (Fc & Pc); [lia|].
  apply f64_clamp_range; [fin_c | fin_c | fle_c | ].
  apply div_by_pos_not_nan; [apply f64_max0_not_nan | exact Fc | exact Pc].
Qed.

Lemma wf_pubb_iff c : wf_pubb c = true <->
  0 <= l_window c <= i32_max /\ 0 <= l_queued c /\ 0 <= l_cct c <= u64_max.
Proof. unfold wf_pubb. rewrite !andb_true_iff, !Z.leb_le. tauto. Qed.

Lemma get_score_range c : l_conn c = true -> wf_pubb c = true -> 0 <= get_score c <= i32_max.
Proof.
  intros Hc Hw. apply wf_pubb_iff in Hw. destruct Hw as (Hw & _ & _).
  unfold get_score. rewrite Hc. cbn [negb].
  set (d := Z.max _ 1). assert (Hd : 1 <= d) by (subst d; lia).
  split.
  - apply Z.quot_pos; lia.
  - apply Z.le_trans with (l_window c); [|lia]. apply Z.quot_le_upper_bound; nia.
Qed.

Lemma phase_weight_range c : bnd 1%float (phase_weight c).
Proof. unfold phase_weight. destruct (l_phase c); split; fle_c. Qed.

Lemma gate_range (b : bool) : bnd 1%float (if b then GATED_LINK_PENALTY else 1%float).
Proof. destruct b; split; fle_c. Qed.

Lemma cached_quality_range c now e q c' :
  wf_linkb c = true -> exp_okb e = true -> cached_quality c now e = (q, c') ->
  q_rangeb q = true /\ wf_linkb c' = true.
Proof.
  unfold cached_quality, wf_linkb. intros Hw He. apply andb_true_iff in Hw. destruct Hw as (Hp & Hq).
  destruct (QUALITY_CACHE_INTERVAL_MS <=? ssub now (l_qlast c)); intros E; inversion E; subst; clear E.
  - pose proof (calc_quality_range c now e He) as R. split; auto.
    apply andb_true_iff. split; [exact Hp | exact R].
  - split; auto. apply andb_true_iff. now split.
Qed.

(** [i32::MAX as f64], the bound of the base score *)
Definition HB : PrimFloat.float := ofZ 2147483647.

Lemma base_range c : l_conn c = true -> wf_pubb c = true -> bnd HB (f64_of_i32 (get_score c)).
Proof.
  intros Hc Hw. pose proof (get_score_range c Hc Hw) as G. unfold i32_max, two31 in G.
  unfold f64_of_i32. replace (get_score c <? 0) with false by (symmetry; apply Z.ltb_ge; lia).
  unfold f64_of_nat63. fold (ofZ (get_score c)). split; [apply ofZ_nonneg | apply ofZ_mono]; lia.
Qed.

Lemma chain_nonneg B W q capm gate :
  bnd HB B -> bnd 1%float W -> bnd Q_HI q -> bnd 1%float capm -> bnd 1%float gate ->
  fle 0%float (B * W * q * capm * gate)%float /\ fle 0%float (B * W * capm * gate)%float.
Proof.
  intros Hb Hw Hq Hc Hg.
  assert (X : bnd (HB * 1)%float (B * W)%float) by (apply bnd_mul; [fin_c | assumption..]).
  split.
  - assert (Y : bnd (HB * 1 * Q_HI)%float (B * W * q)%float) by (apply bnd_mul; [fin_c | assumption..]).
    assert (Z : bnd (HB * 1 * Q_HI * 1)%float (B * W * q * capm)%float) by (apply bnd_mul; [fin_c | assumption..]).
    refine (proj1 (bnd_mul _ _ _ _ _ Z Hg)). fin_c.
  - assert (Z : bnd (HB * 1 * 1)%float (B * W * capm)%float) by (apply bnd_mul; [fin_c | assumption..]).
    refine (proj1 (bnd_mul _ _ _ _ _ Z Hg)). fin_c.
Qed.

Lemma score_link_factors {au quality now e c s c'} :
  wf_linkb c = true -> exp_okb e = true -> score_link au quality now e c = Some (s, c') ->
  exists q capm gate,
    s = (if quality then f64_of_i32 (get_score c) * phase_weight c * q * capm * gate
         else f64_of_i32 (get_score c) * phase_weight c * capm * gate)%float /\
    bnd Q_HI q /\ bnd 1%float capm /\ bnd 1%float gate.
Proof.
  intros Hw He. unfold score_link.
  destruct (skipped now c); [discriminate|].
  destruct (au && in_flight_cap_exceeded c); [discriminate|].
  assert (Hp : wf_pubb c = true) by (unfold wf_linkb in Hw; now apply andb_true_iff in Hw).
  assert (Hcc : 0 <= l_cct c <= u64_max) by (apply wf_pubb_iff in Hp; tauto).
  destruct (soft_cap_range c Hcc) as (C0 & C1). apply (fle_trans 0%float) in C0; [|fle_c].
  pose proof (gate_range (au && (l_weak c || l_lossdeg c))) as G.
  destruct quality; cbn [negb].
  - destruct (cached_quality c now e) as (q, c1) eqn:Eq.
    destruct (cached_quality_range c now e q c1 Hw He Eq) as (Rq & _).
    apply q_range_iff in Rq. destruct Rq as (Q0 & Q1). apply (fle_trans 0%float) in Q0; [|fle_c].
    intros E. injection E as <- _. exists q, (cc_soft_cap_multiplier c). eexists. split; [reflexivity|].
    repeat split; assumption || apply G.
  - intros E. injection E as <- _. exists 1%float, (cc_soft_cap_multiplier c). eexists. split; [reflexivity|].
    repeat split; assumption || apply G || fle_c.
Qed.

Theorem score_link_nonneg au quality now e c s c' :
  wf_linkb c = true -> exp_okb e = true -> l_conn c = true ->
  score_link au quality now e c = Some (s, c') -> fle 0%float s.
Proof.
  intros Hw He Hc E.
  destruct (score_link_factors Hw He E) as (q & capm & gate & -> & Hq & Hcap & Hg).
  assert (Hp : wf_pubb c = true) by (unfold wf_linkb in Hw; now apply andb_true_iff in Hw).
  destruct (chain_nonneg _ _ _ _ _ (base_range c Hc Hp) (phase_weight_range c) Hq Hcap Hg) as (H1 & H2).
  now destruct quality.
Qed.

Corollary score_link_above_floor au quality now e c s c' :
  wf_linkb c = true -> exp_okb e = true -> l_conn c = true ->
  score_link au quality now e c = Some (s, c') -> ((-1)%float <? s)%float = true.
Proof. intros. apply fle0_gt_m1. eapply score_link_nonneg; eauto. Qed.

Theorem score_link_not_nan au quality now e c s c' :
  wf_linkb c = true -> exp_okb e = true ->
  score_link au quality now e c = Some (s, c') -> PrimFloat.is_nan s = false.
Proof.
  intros Hw He E. destruct (l_conn c) eqn:Hc.
  { apply (fle_not_nan_r 0%float). eapply score_link_nonneg; eauto. }
  destruct (score_link_factors Hw He E) as (q & capm & gate & -> & Hq & Hcap & Hg).
  (* the base of a disconnected link is -1: the score is the opposite of a non-negative product *)
  unfold get_score. rewrite Hc. cbn [negb]. change (f64_of_i32 (-1)) with (PrimFloat.opp 1%float).
  destruct (chain_nonneg 1%float _ _ _ _ ltac:(split; fle_c) (phase_weight_range c) Hq Hcap Hg) as (H1 & H2).
  destruct quality; rewrite !opp_mul_l, is_nan_opp; apply (fle_not_nan_r 0%float); assumption.
Qed.
