(** RegP.v — lemmas about the registration model (Model/Reg.v): list helpers; what a packet list
    holds ([reg1_of], [reg2_cnt], [pkts_ok]); the housekeeping loop and a pass after its head
    ([tick_spec]); [handle_reg_ngp], [handle_reg2] and [reg_driver] case by case (the other
    operations build one record and are unfolded where used); the broadcast, probing; the manager's
    invariant [RInv] and the head of a pass ([tick_head]). *)
From Coq Require Import ZifyBool.
From Srtla Require Import Base Reg BaseP.

Lemma REG2_WAIT_pos : 0 < REG2_WAIT_MS.
Proof. reflexivity. Qed.

(** reduces the projections of explicit records, nothing else *)
Ltac rsimpl :=
  cbn [r_active r_target r_flag r_id r_pending r_ptimeout r_next r_hasconn
       r_pstate r_pid r_probes s_reg s_conn fst snd].
Tactic Notation "rsimpl" "in" hyp(H) :=
  cbn [r_active r_target r_flag r_id r_pending r_ptimeout r_next r_hasconn
       r_pstate r_pid r_probes s_reg s_conn fst snd] in H.

Lemma opt_is_true : forall o i, opt_is o i = true <-> o = Some i.
Proof.
  intros [j|] i; cbn; split; intro H; try discriminate.
  - apply Z.eqb_eq in H; subst; reflexivity.
  - inversion H; subst; apply Z.eqb_refl.
Qed.

Lemma is_none_true : forall A (o : option A), is_none o = true <-> o = None.
Proof. intros A [x|]; cbn; split; intro H; try discriminate; reflexivity. Qed.

Lemma is_none_false : forall A (o : option A), is_none o = false <-> o <> None.
Proof. intros A [x|]; cbn; split; intro H; try discriminate; try congruence; reflexivity. Qed.

Lemma count_true_nonneg : forall l, 0 <= count_true l.
Proof. intros; unfold count_true; apply blen_nonneg. Qed.

Definition none_conn (l : list bool) : Prop := Forall (fun b => b = false) l.

Lemma count_true_zero : forall l, count_true l = 0 -> none_conn l.
Proof.
  induction l as [|b t IH]; intro H; [constructor|].
  unfold count_true in *; cbn [filter] in H. destruct b.
  - rewrite blen_cons in H. pose proof (blen_nonneg (filter (fun b => b) t)). lia.
  - constructor; auto. apply IH; exact H.
Qed.

Lemma none_conn_repeat : forall k, none_conn (repeat false k).
Proof. induction k; cbn; constructor; auto. Qed.

Lemma set_nth_length : forall l i v, length (set_nth l i v) = length l.
Proof.
  induction l as [|c t IH]; intros; cbn; [reflexivity|].
  destruct (i =? 0); cbn; [reflexivity|rewrite IH; reflexivity].
Qed.

Lemma blen_set_nth : forall l i v, blen (set_nth l i v) = blen l.
Proof. intros; unfold blen; rewrite set_nth_length; reflexivity. Qed.

Lemma nth_set_nth_other : forall l i v k, 0 <= k -> k <> i ->
  nth (Z.to_nat k) (set_nth l i v) false = nth (Z.to_nat k) l false.
Proof.
  induction l as [|c t IH]; intros i v k Hk Hne; cbn [set_nth]; [reflexivity|].
  destruct (Z.to_nat k) as [|m] eqn:Ek; (destruct (i =? 0) eqn:E; [assert (i = 0) by lia; subst i|]);
    cbn [nth]; try reflexivity; [lia|].
  replace m with (Z.to_nat (k - 1)) by lia. apply IH; lia.
Qed.

Lemma none_conn_set_false : forall l i, none_conn l -> none_conn (set_nth l i false).
Proof.
  induction l as [|c t IH]; intros i H; cbn; [constructor|].
  inversion H; subst. destruct (i =? 0); constructor; auto. apply IH; assumption.
Qed.

Definition reg1_of (l : list pkt) : list Z := map pk_dst (filter (fun p => pk_kind p =? K_REG1) l).
Definition reg2_cnt (l : list pkt) (i : Z) : Z :=
  blen (filter (fun p => (pk_kind p =? K_REG2) && (pk_dst p =? i)) l).
Definition pkts_ok (id : Z) (l : list pkt) : Prop :=
  Forall (fun p => (pk_kind p = K_REG1 \/ pk_kind p = K_REG2) /\ pk_id p = id) l.

Lemma reg1_of_app : forall a b, reg1_of (a ++ b) = reg1_of a ++ reg1_of b.
Proof. intros; unfold reg1_of; rewrite filter_app, map_app; reflexivity. Qed.
Lemma reg2_cnt_app : forall a b i, reg2_cnt (a ++ b) i = reg2_cnt a i + reg2_cnt b i.
Proof. intros; unfold reg2_cnt; rewrite filter_app, blen_app; reflexivity. Qed.
Lemma pkts_ok_app : forall id a b, pkts_ok id a -> pkts_ok id b -> pkts_ok id (a ++ b).
Proof. intros; unfold pkts_ok in *; apply Forall_app; split; assumption. Qed.

Definition conn_drop (pre post : list bool) : Prop :=
  Forall2 (fun a b => b = true -> a = true) pre post.

Lemma conn_drop_none : forall a b, conn_drop a b -> none_conn a -> none_conn b.
Proof.
  induction 1 as [|x y l l' H H2 IH]; intro N; [constructor|]. inversion N as [|? ? Hx Hl]; subst.
  constructor.
  - destruct y; auto. specialize (H eq_refl). discriminate.
  - apply IH; exact Hl.
Qed.

Lemma conn_drop_refl : forall l, conn_drop l l.
Proof. apply Forall2_reflexive; auto. Qed.

Lemma conn_drop_set_false : forall l i, conn_drop l (set_nth l i false).
Proof.
  induction l as [|c t IH]; intro i; cbn [set_nth]; [constructor|].
  destruct (i =? 0); constructor; first [discriminate|apply conn_drop_refl|apply IH|auto].
Qed.

Lemma conn_drop_nth : forall a b k, conn_drop a b -> nth k b false = true -> nth k a false = true.
Proof.
  intros a b k H; revert k. induction H as [|x y l l' H H2 IH]; intros k Hk; destruct k; cbn [nth] in *; auto.
Qed.

Lemma reg2_cnt_nonneg : forall l k, 0 <= reg2_cnt l k.
Proof. intros; apply blen_nonneg. Qed.
Lemma reg2_cnt_nil : forall k, reg2_cnt [] k = 0.
Proof. reflexivity. Qed.
Lemma reg2_cnt_one : forall i id k, reg2_cnt [(K_REG2, i, id)] k = Z.b2z (i =? k).
Proof.
  intros. unfold reg2_cnt. cbn [filter pk_kind pk_dst fst snd].
  change (K_REG2 =? K_REG2) with true. cbn [andb]. destruct (i =? k); reflexivity.
Qed.
Lemma reg2_cnt_cons : forall p l k, reg2_cnt (p :: l) k = reg2_cnt [p] k + reg2_cnt l k.
Proof. intros. change (p :: l) with ([p] ++ l). apply reg2_cnt_app. Qed.

(** [a = Some j]: [r'] awaits uplink [j] from [now] on and has it as REG1 target.  [a = None]: what is
    awaited, its deadline and the target are those of [r].  Either way id, probing state and probes
    are kept, the other fields are free.  Every operation of a pass after its head is of this kind. *)
Definition arms (now : Z) (a : option Z) (r r' : reg) : Prop :=
  r_id r' = r_id r /\ r_pstate r' = r_pstate r /\ r_probes r' = r_probes r /\
  match a with
  | Some j => r_pending r' = Some j /\ r_ptimeout r' = now + REG2_WAIT_MS /\ r_target r' = Some j
  | None => r_pending r' = r_pending r /\ r_ptimeout r' = r_ptimeout r /\ r_target r' = r_target r
  end.

Lemma arms_trans : forall now a b r r1 r2, arms now a r r1 -> arms now b r1 r2 ->
  arms now (match b with Some _ => b | None => a end) r r2.
Proof.
  intros now a b r r1 r2 (Hi & Hs & Hr & A) (Hi' & Hs' & Hr' & B).
  destruct a, b; destruct A as (? & ? & ?), B as (? & ? & ?); repeat split; congruence.
Qed.

(** The loop from uplink [i] on changes neither [r_pending] nor [r_id] (a re-sent REG1 awaits the
    uplink already awaited), so what is awaited at entry decides the run: with nothing awaited a
    REG2 goes to every uplink that is due; otherwise the one packet is a REG1, again to the awaited
    uplink, if the loop visits it and it is due. *)
Lemma tick_loop_spec : forall due now conn i r r2 conn2 o,
  tick_loop due now i conn r = (r2, conn2, o) ->
  conn_drop conn conn2 /\
  match r_pending r with
  | None => r2 = r /\ reg1_of o = [] /\ pkts_ok (r_id r) o /\
            forall k, reg2_cnt o k = Z.b2z ((i <=? k) && (k <? i + blen conn) && memz k due)
  | Some j => (r2, o) = if (i <=? j) && (j <? i + blen conn) && memz j due
                        then (fst (build_reg1_for r j now), [(K_REG1, j, r_id r)]) else (r, [])
  end.
Proof.
  induction conn as [|c t IH]; intros i r r2 conn2 o E; cbn [tick_loop] in E.
  - injection E as <- <- <-. split; [constructor|]. rewrite blen_nil. destruct (r_pending r) as [j|].
    + replace ((i <=? j) && (j <? i + 0)) with false by lia. reflexivity.
    + repeat split; try constructor. intro k. rewrite reg2_cnt_nil. lia.
  - pose proof (blen_nonneg t) as Hl. rewrite blen_cons. set (L := blen t) in *.
    destruct (r_pending r) as [j|] eqn:Ep.
    + destruct (memz i due) eqn:M; [destruct (j =? i) eqn:Eji|].
      1: { (* the awaited uplink, and due: awaited anew; the rest of the loop is past it *)
        assert (j = i) by lia; subst j. cbn [build_reg1_for] in E.
        destruct (tick_loop due now (i + 1) t _) as [[r2' t2] o2] eqn:E2 in E. injection E as <- <- <-.
        destruct (IH _ _ _ _ _ E2) as [Hc H2]. rsimpl in H2.
        replace ((i + 1 <=? i) && (i <? i + 1 + L)) with false in H2 by lia. injection H2 as -> ->.
        split; [constructor; [discriminate|exact Hc]|].
        rewrite M. replace ((i <=? i) && (i <? i + (1 + L))) with true by lia. reflexivity. }
      (* another uplink, or not due: nothing here, and the rest of the loop decides *)
      all: destruct (tick_loop due now (i + 1) t r) as [[r2' t2] o2] eqn:E2 in E; injection E as <- <- <-.
      all: destruct (IH _ _ _ _ _ E2) as [Hc H2]; rewrite Ep in H2.
      all: split; [constructor; [first [discriminate|exact (fun H => H)]|exact Hc]|]; cbn [app].
      all: replace ((i <=? j) && (j <? i + (1 + L)) && memz j due)
             with ((i + 1 <=? j) && (j <? i + 1 + L) && memz j due); [exact H2|].
      all: clear IH E2 H2 Hc; destruct (Z.eq_dec j i) as [->|]; [rewrite M|]; lia.
    + (* nothing awaited: a REG2 to [i] if it is due, and the rest of the loop *)
      destruct (memz i due) eqn:M;
        destruct (tick_loop due now (i + 1) t r) as [[r2' t2] o2] eqn:E2 in E; injection E as <- <- <-;
        destruct (IH _ _ _ _ _ E2) as (Hc & H2); rewrite Ep in H2; destruct H2 as (-> & R1 & PK & R2).
      all: split; [constructor; [first [discriminate|exact (fun H => H)]|exact Hc]|].
      all: split; [reflexivity|]; split; [exact R1|]; split.
      1: constructor; [cbn; auto|exact PK]. 2: exact PK.
      all: intro k; try (rewrite reg2_cnt_cons; unfold build_reg2; rewrite reg2_cnt_one); rewrite R2.
      all: clear - M Hl; destruct (Z.eq_dec i k) as [->|]; [rewrite M|]; lia.
Qed.

Lemma bcast_spec : forall k i id,
  reg1_of (bcast k i id) = [] /\ pkts_ok id (bcast k i id) /\
  (forall j, reg2_cnt (bcast k i id) j = Z.b2z ((i <=? j) && (j <? i + Z.of_nat k))).
Proof.
  induction k as [|k IH]; intros i id; cbn [bcast].
  - split; [reflexivity|]. split; [constructor|]. intro j. rewrite reg2_cnt_nil. lia.
  - destruct (IH (i + 1) id) as (R1 & PK & R2). split; [|split].
    + unfold reg1_of in *. cbn [filter pk_kind fst]. change (K_REG2 =? K_REG1) with false. exact R1.
    + constructor; [|exact PK]. cbn. auto.
    + intro j. rewrite reg2_cnt_cons, R2, reg2_cnt_one. rewrite Nat2Z.inj_succ. lia.
Qed.

Lemma is_probing_iff : forall r, is_probing r = true <-> r_pstate r = PWaiting.
Proof. intro r; unfold is_probing; destruct (r_pstate r); cbn; split; congruence. Qed.

Lemma not_probing : forall r, r_pstate r <> PWaiting -> is_probing r = false.
Proof. intros r H. destruct (is_probing r) eqn:E; [apply is_probing_iff in E; contradiction|reflexivity]. Qed.

(** The premise keeps the immediate REG1 from firing behind a probe answer: while the probing
    round waits there is no REG1 target. *)
Lemma ngp_cases : forall fx r conn i now,
  (r_pstate r = PWaiting -> r_target r = None) ->
  step fx (mkSt r conn) (Ngp i now) =
  if is_probing r then (mkSt (handle_probe_response r i now) conn, [])
  else if (r_active r =? 0) && is_none (r_pending r)
       then (mkSt (fst (build_reg1_for r i now)) conn, [(K_REG1, i, r_id r)])
       else (mkSt r conn, []).
Proof.
  intros fx r conn i now Hw. cbn [step s_reg s_conn]. unfold handle_reg_ngp, is_probing.
  destruct (pstate_eqb (r_pstate r) PWaiting) eqn:Ew.
  - unfold handle_probe_response, reg1_if_ngp_immediate. rewrite Ew. rsimpl.
    rewrite (Hw (proj1 (is_probing_iff r) Ew)). cbn [opt_is]. rewrite andb_false_r. reflexivity.
  - unfold reg1_if_ngp_immediate. destruct ((r_active r =? 0) && is_none (r_pending r)) eqn:Ec; rsimpl; rewrite Ec.
    + cbn [opt_is andb]. rewrite Z.eqb_refl, Z.leb_refl. reflexivity.
    + reflexivity.
Qed.

Lemma handle_reg2_cases : forall r i len tag now,
  handle_reg2 r i len tag now =
  if (REG2_MIN_LEN <=? len) && opt_is (r_pending r) i
  then mkReg tag None (now + REG3_WAIT_MS) (r_active r) (r_hasconn r) true
             None 0 (r_pstate r) (r_pid r) (r_probes r)
  else r.
Proof.
  intros. unfold handle_reg2. rewrite Z.leb_antisym. destruct (len <? REG2_MIN_LEN); reflexivity.
Qed.

Lemma reg_driver_spec : forall r now r' s1 b,
  reg_driver r now = (r', s1, b) ->
  b = (if r_flag r then Some (r_id r) else None) /\ r_active r' = r_active r /\ r_flag r' = false /\
  arms now s1 r r' /\
  forall j, s1 = Some j -> r_target r = Some j /\ r_pending r = None /\ r_active r = 0.
Proof.
  intros r now r' s1 b. unfold reg_driver.
  destruct (r_active r =? 0) eqn:Ea;
    [destruct (r_target r) as [j|] eqn:Et;
       [destruct (is_none (r_pending r) && (r_next r <=? now)) eqn:Ec|]|];
    rsimpl; destruct (r_flag r) eqn:Ef; intros [= <- <- <-]; rsimpl; repeat split; auto; try discriminate.
  all: apply andb_true_iff in Ec as [Ep _]; apply is_none_true in Ep; auto; lia.
Qed.

(** A pass after its head [r1]: the loop, the recount, the driver, the broadcast.  At most one REG1
    leaves: the loop re-sends it to the uplink awaited at [r1], or the driver starts an attempt
    towards the target of [r1] when nothing is awaited and no uplink is connected any more.  REG2s go
    to uplinks in range only: the broadcast to each, the loop's to those that are due. *)
Lemma tick_spec : forall n conn now amb due r r4 conn2 out,
  blen conn = n ->
  let r0 := clear_pending_if_timed_out r now in
  let r1 := if is_probing r0 then check_probing_complete r0 amb else r0 in
  (forall j, r_target r1 = Some j -> 0 <= j < n) ->
  tick (mkSt r conn) now amb due = (mkSt r4 conn2, out) ->
  conn_drop conn conn2 /\ pkts_ok (r_id r1) out /\ r_active r4 = count_true conn2 /\ r_flag r4 = false /\
  (forall k, Z.b2z (in_range n k && r_flag r1) <= reg2_cnt out k
               <= Z.b2z (in_range n k && r_flag r1) + Z.b2z (in_range n k && memz k due)) /\
  exists a, arms now a r1 r4 /\ reg1_of out = match a with Some j => [j] | None => [] end /\
    forall j, a = Some j ->
      r_pending r1 = Some j \/ r_pending r1 = None /\ r_target r1 = Some j /\ count_true conn2 = 0.
Proof.
  intros n conn now amb due r r4 conn2 out Hn r0 r1 Ht. unfold tick. cbn [s_reg s_conn]. rewrite Hn.
  fold r0. fold r1.
  destruct (tick_loop due now 0 conn r1) as [[r2 c2] o] eqn:EL.
  destruct (tick_loop_spec _ _ _ _ _ _ _ _ EL) as [Hc HL].
  assert (L : exists a, arms now a r1 r2 /\ r_flag r2 = r_flag r1 /\ pkts_ok (r_id r1) o /\
                reg1_of o = match a with Some j => [j] | None => [] end /\
                (forall j, a = Some j -> r_pending r1 = Some j) /\
                forall k, 0 <= reg2_cnt o k <= Z.b2z (in_range n k && memz k due)).
  { destruct (r_pending r1) as [j|] eqn:Ep.
    - destruct (_ && _ && _); injection HL as -> ->; [exists (Some j)|exists None].
      all: repeat split; auto; try discriminate; try (repeat constructor; fail).
      all: change (reg2_cnt _ k) with 0; destruct (in_range n k && memz k due); discriminate.
    - destruct HL as (-> & R1 & PK & R2). exists None. repeat split; auto; try discriminate.
      all: rewrite R2; unfold in_range; lia. }
  destruct L as (a & A & Hfl & Hpk & R1 & Ha & Hcnt).
  destruct (reg_driver (update_active r2 c2) now) as [[r4' s1] b] eqn:ED.
  destruct (reg_driver_spec _ _ _ _ _ ED) as (-> & Dact & Dfl & D & Hs). unfold update_active in *.
  rsimpl in Dact. rsimpl in Hs. rsimpl. intros [= <- <- <-].
  change (arms now s1 r2 r4') in D. rewrite Hfl, (proj1 A).
  (* the driver only fires with nothing awaited, so not after the loop re-sent a REG1 *)
  assert (HD : forall j, s1 = Some j -> a = None /\ r_target r1 = Some j /\ r_pending r1 = None).
  { intros j Ej. destruct (Hs j Ej) as (Et & Ep & _). destruct A as (_ & _ & _ & A).
    destruct a; destruct A as (Ap & _ & At); repeat split; congruence. }
  (* the three parts of the output: the loop's, the driver's REG1, the broadcast *)
  set (oD := match s1 with Some idx => _ | None => [] end).
  assert (D' : pkts_ok (r_id r1) oD /\ (forall k, reg2_cnt oD k = 0) /\
               reg1_of oD = match s1 with Some j => [j] | None => [] end).
  { unfold oD. destruct s1 as [j|]; [|repeat split; constructor].
    destruct (HD j eq_refl) as (_ & Et & _). apply Ht in Et. unfold in_range.
    replace ((0 <=? j) && (j <? n)) with true by (clear - Et; lia). repeat split; repeat constructor. }
  destruct D' as (Dpk & D2 & D1). clearbody oD.
  set (oB := match (if r_flag r1 then _ else None) with Some id => _ | None => [] end).
  assert (B : pkts_ok (r_id r1) oB /\ (forall k, reg2_cnt oB k = Z.b2z (in_range n k && r_flag r1)) /\
              reg1_of oB = []).
  { unfold oB. destruct (r_flag r1); [|repeat split; try constructor; intro k; rewrite andb_false_r; reflexivity].
    destruct (bcast_spec (Z.to_nat n) 0 (r_id r1)) as (B1 & Bpk & B2). repeat split; try assumption.
    intro k. rewrite B2, andb_true_r. unfold in_range. clear - Hn. pose proof (blen_nonneg conn). lia. }
  destruct B as (Bpk & B2 & B1). clearbody oB.
  split; [exact Hc|]. split; [auto using pkts_ok_app|]. split; [exact Dact|]. split; [exact Dfl|]. split.
  { intro k. rewrite !reg2_cnt_app, D2, B2. specialize (Hcnt k). clear - Hcnt. lia. }
  exists (match s1 with Some _ => s1 | None => a end). split; [exact (arms_trans _ _ _ _ _ _ A D)|].
  rewrite !reg1_of_app, R1, D1, B1, app_nil_r. destruct s1 as [j|].
  - destruct (HD j eq_refl) as (-> & Et & Ep). split; [reflexivity|]. intros j0 [= <-]. right.
    repeat split; auto. apply (Hs j eq_refl).
  - rewrite app_nil_r. split; [reflexivity|]. intros j Ej. left. apply (Ha j Ej).
Qed.

Definition probes_in (n : Z) (l : list probe) : Prop := Forall (fun p => 0 <= pr_idx p < n) l.

Lemma probe_respond_in : forall n l i now, probes_in n l -> probes_in n (probe_respond l i now).
Proof.
  induction l as [|p t IH]; intros i now H; cbn; [constructor|].
  inversion H; subst. destruct (pr_idx p =? i).
  - destruct (pr_rtt p); constructor; auto.
  - constructor; auto. apply IH; auto.
Qed.

Lemma best_probe_in : forall n l acc idx rt,
  probes_in n l -> (forall a b, acc = Some (a, b) -> 0 <= a < n) ->
  best_probe l acc = Some (idx, rt) -> 0 <= idx < n.
Proof.
  induction l as [|p t IH]; intros acc idx rt H Ha E; cbn in E.
  - eapply Ha; eauto.
  - inversion H; subst. destruct (pr_rtt p) as [r|].
    + destruct acc as [[a b]|].
      * destruct (r <? b).
        -- eapply IH; [eauto| |exact E]. intros a0 b0 E0; inversion E0; subst; auto.
        -- eapply IH; eauto.
      * eapply IH; [eauto| |exact E]. intros a0 b0 E0; inversion E0; subst; auto.
    + eapply IH; eauto.
Qed.

Lemma probe_all_spec : forall k i pid now ps rs,
  probe_all k i pid now = (ps, rs) ->
  length rs = k /\ Forall (fun p => i <= pr_idx p < i + Z.of_nat k) rs /\
  reg1_of ps = [].
Proof.
  induction k as [|k IH]; intros i pid now ps rs H; cbn [probe_all] in H.
  - inversion H; subst; repeat split; constructor.
  - destruct (probe_all k (i + 1) pid now) as [ps' rs'] eqn:E. inversion H; subst.
    destruct (IH _ _ _ _ _ E) as (L & F & R). split; [cbn; lia|]. split.
    + constructor; [cbn; lia|]. eapply Forall_impl; [|exact F]. cbn; intros; lia.
    + unfold reg1_of in *. cbn [filter pk_kind fst]. change (K_REG2 =? K_REG1) with false. exact R.
Qed.

(** of the manager alone; an awaited uplink has a deadline [0 < r_ptimeout]: the code reads 0 as none *)
Record RInv (n : Z) (r : reg) : Prop := {
  inv_pend : forall j, r_pending r = Some j ->
             0 <= j < n /\ r_target r = Some j /\ 0 < r_ptimeout r;
  inv_tgt : forall j, r_target r = Some j -> 0 <= j < n;
  inv_wait : r_pstate r = PWaiting -> r_pending r = None /\ r_target r = None /\ 0 < n;
  inv_probes : probes_in n (r_probes r)
}.

Arguments inv_pend {n r}. Arguments inv_tgt {n r}. Arguments inv_wait {n r}. Arguments inv_probes {n r}.

Lemma waiting_none : forall n r, RInv n r -> r_pending r <> None -> r_pstate r <> PWaiting.
Proof. intros n r I Hp W. destruct (inv_wait I W). contradiction. Qed.

Lemma rinv_arms : forall n now a r r', RInv n r -> arms now a r r' -> 0 <= now ->
  (forall j, a = Some j -> 0 <= j < n /\ r_pstate r <> PWaiting) -> RInv n r'.
Proof.
  intros n now a r r' [] (_ & Hs & Hr & A) Hnow Ha. pose proof REG2_WAIT_pos.
  destruct a as [j|]; destruct A as (Hp & Ht & Hg); constructor; rewrite ?Hp, ?Ht, ?Hg, ?Hs, ?Hr; auto;
    destruct (Ha j eq_refl) as [Hj Hw]; [intros j0 [= <-]; repeat split; auto; lia..|contradiction].
Qed.

Lemma rinv_idle : forall n r r', RInv n r -> r_pending r' = None -> r_target r' = None ->
  r_pstate r' = r_pstate r -> r_probes r' = r_probes r -> RInv n r'.
Proof.
  intros n r r' [_ _ Iw Ipr] Hp Hg Hs Hr. constructor; rewrite ?Hp, ?Hg, ?Hs, ?Hr; auto; try (intros; discriminate).
  intro W. destruct (Iw W) as (_ & _ & ?). auto.
Qed.

(** the timeout the code applies at the head of a pass *)
Definition texp (r : reg) (now : Z) : bool := is_some (r_pending r) && (r_ptimeout r <=? now).

(** the head of a pass, the timeout and then the completion of the probing round: an attempt
    that is not abandoned is not touched *)
Lemma tick_head : forall n r now amb, RInv n r ->
  let r0 := clear_pending_if_timed_out r now in
  let r1 := if is_probing r0 then check_probing_complete r0 amb else r0 in
  RInv n r1 /\ r_id r1 = r_id r /\ r_flag r1 = r_flag r /\
  r_pending r1 = (if texp r now then None else r_pending r) /\
  (r_pending r1 <> None -> r1 = r) /\
  (texp r now = true -> r_target r1 = None).
Proof.
  intros n r now amb I. pose proof I as [Ip It Iw Ipr]. cbv zeta.
  unfold clear_pending_if_timed_out, texp.
  destruct (r_pending r) as [j|] eqn:Hp; cbn [is_some is_none negb andb].
  - destruct (Ip j eq_refl) as (Hj & Htj & Hpt).
    assert (Hnw : r_pstate r <> PWaiting) by (apply (waiting_none n); congruence).
    replace (r_ptimeout r =? 0) with false by lia. cbn [negb andb].
    destruct (r_ptimeout r <=? now).
    + (* abandoned *)
      rewrite not_probing by exact Hnw. rsimpl. split; [|repeat split; congruence].
      apply (rinv_idle n r); auto.
    + rewrite not_probing by exact Hnw. split; [exact I|repeat split; auto; discriminate].
  - destruct (is_probing r) eqn:Ew; [|split; [exact I|repeat split; auto; discriminate]].
    apply is_probing_iff in Ew. destruct (Iw Ew) as (_ & Wt & Wn).
    unfold check_probing_complete. rewrite Ew. cbn [pstate_eqb negb].
    destruct (forallb _ _ || _); [|split; [exact I|repeat split; auto; discriminate]].
    (* the round is over: the best answer becomes the REG1 target *)
    rsimpl. split; [|repeat split; congruence].
    constructor; rsimpl; auto; try (intros; discriminate).
    + rewrite Hp; intros; discriminate.
    + intros j E. inversion E; subst.
      destruct (best_probe (r_probes r) None) as [[idx rt]|] eqn:Eb; [|lia].
      eapply best_probe_in; [exact Ipr| |exact Eb]. intros; discriminate.
Qed.
