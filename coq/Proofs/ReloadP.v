(** Proofs/ReloadP.v — lemmas about the reload model (Model/Reload.v): the three keyed
    structures (connection list, I/O map, sequence tracker), [apply_changes] as a retain
    phase followed by a create phase, and the invariant that ties the structures together. *)
From Srtla Require Import Base Reload BaseP.

Arguments mem : simpl never.
Arguments keep : simpl never.
Arguments io_insert : simpl never.
Arguments io_remove : simpl never.
Arguments trk_insert : simpl never.
Arguments trk_remove : simpl never.

Lemma mem_In : forall a l, mem a l = true <-> In a l.
Proof.
  intros a l. unfold mem. rewrite existsb_exists. split.
  - intros [x [Hin Heq]]. apply Z.eqb_eq in Heq. subst. exact Hin.
  - intro H. exists a. split; [exact H | apply Z.eqb_refl].
Qed.
Lemma mem_nIn : forall a l, mem a l = false <-> ~ In a l.
Proof.
  intros a l. rewrite <- mem_In. destruct (mem a l); intuition congruence.
Qed.

(** "the parsable lines in order": map/filter over the lines.  [Run_C19.spec_ips o t], which the
    monitor and the theorems speak of, unfolds to [spec_lines o (lines t)]; the induction below
    needs the list of lines as a variable. *)
Definition spec_lines (o : orc) (ls : list (list Z)) : list addr :=
  flat_map (fun l => match trim l with
                     | [] => []
                     | tr => match orc_get o tr with Some a => [a] | None => [] end
                     end) ls.

Lemma analyze_loop_ips : forall o ls idx ips fi saw,
  fst (fst (analyze_loop o ls idx ips fi saw)) = ips ++ spec_lines o ls.
Proof.
  intros o ls. induction ls as [|l t IH]; intros idx ips fi saw; simpl.
  - rewrite app_nil_r. reflexivity.
  - destruct (trim l) as [|z l0] eqn:E; [apply IH|].
    destruct (orc_get o (z :: l0)) as [ip|]; rewrite IH; [rewrite <- app_assoc|]; reflexivity.
Qed.

Lemma analyze_text_spec : forall o text,
  match spec_lines o (lines text) with
  | [] => exists r, analyze_text o text = ARefuse r
  | ips => exists fi, analyze_text o text = AApply ips fi
  end.
Proof.
  intros o text. unfold analyze_text.
  pose proof (analyze_loop_ips o (lines text) 0 [] None false) as H.
  destruct (analyze_loop o (lines text) 0 [] None false) as [[ips fi] saw].
  simpl in H. subst ips.
  destruct (spec_lines o (lines text)); [destruct saw|]; eexists; reflexivity.
Qed.

Lemma trk_lookup_notin : forall k t, ~ In k (map fst t) -> trk_lookup k t = None.
Proof.
  intros k t. induction t as [|[k' e] r IH]; simpl; intro H; [reflexivity|].
  destruct (Z.eqb_spec k' k) as [E|_]; [tauto|]. apply IH. tauto.
Qed.

(** Dropping records by content uncovers no older record of the same slot, because slots
    are distinct. *)
Lemma trk_lookup_filter : forall (P : entry -> bool) k t,
  NoDup (map fst t) ->
  trk_lookup k (filter (fun p => P (snd p)) t) =
  match trk_lookup k t with Some e => if P e then Some e else None | None => None end.
Proof.
  intros P k t. induction t as [|[k' e] r IH]; simpl; intro H; [reflexivity|].
  inversion H; subst.
  destruct (P e) eqn:EP; simpl.
  - destruct (k' =? k); [rewrite EP; reflexivity|apply IH; assumption].
  - destruct (Z.eqb_spec k' k) as [->|_]; [|apply IH; assumption].
    rewrite EP, IH, (trk_lookup_notin k r) by assumption. reflexivity.
Qed.

Lemma trk_get_filter : forall gone seq now t,
  NoDup (map fst t) ->
  trk_get seq now (filter (fun p => negb (mem (e_id (snd p)) gone)) t) =
  match trk_get seq now t with
  | Some j => if mem j gone then None else Some j
  | None => None
  end.
Proof.
  intros gone seq now t H. unfold trk_get.
  rewrite (trk_lookup_filter (fun e => negb (mem (e_id e) gone))) by assumption.
  destruct (trk_lookup (slot seq) t) as [e|]; [|reflexivity].
  destruct (mem (e_id e) gone) eqn:EM; simpl; destruct (entry_valid e seq now); rewrite ?EM; reflexivity.
Qed.

Lemma trk_get_id_in : forall seq now t j,
  trk_get seq now t = Some j -> exists k e, In (k, e) t /\ e_id e = j.
Proof.
  intros seq now t j. unfold trk_get.
  destruct (trk_lookup (slot seq) t) as [e|] eqn:E; [|discriminate].
  destruct (entry_valid e seq now); [|discriminate]. intro H. injection H as H.
  exists (slot seq), e. split; [|exact H].
  clear H. induction t as [|[k' e'] r IH]; simpl in E; [discriminate|].
  destruct (Z.eqb_spec k' (slot seq)) as [->|_].
  - injection E as ->. left. reflexivity.
  - right. apply IH. exact E.
Qed.

(** [io_remove] and the purge of several ids both filter the map by key. *)
Lemma io_get_filter : forall (P : Z -> bool) id m,
  io_get id (filter (fun p => P (fst p)) m) = if P id then io_get id m else None.
Proof.
  intros P id m. induction m as [|[k v] r IH]; simpl; [destruct (P id); reflexivity|].
  destruct (Z.eqb_spec k id) as [->|N].
  - destruct (P id); simpl; [rewrite Z.eqb_refl; reflexivity|exact IH].
  - destruct (P k); simpl; [apply Z.eqb_neq in N; rewrite N|]; exact IH.
Qed.
Lemma keys_filter : forall {V} (P : Z -> bool) x (m : list (Z * V)),
  In x (map fst (filter (fun p => P (fst p)) m)) <-> In x (map fst m) /\ P x = true.
Proof.
  intros V P x m. induction m as [|[k v] r IH]; simpl; [tauto|].
  destruct (P k) eqn:E; simpl; rewrite IH; intuition congruence.
Qed.
(** [io_insert] and [trk_insert] both put the new pair in front of the others' pairs. *)
Lemma NoDup_keys_cons : forall {V} k (v : V) (m : list (Z * V)),
  NoDup (map fst m) -> NoDup (map fst ((k, v) :: filter (fun p => negb (fst p =? k)) m)).
Proof.
  intros V k v m H. simpl. constructor; [|apply NoDup_map_filter; exact H].
  rewrite (keys_filter (fun k' => negb (k' =? k))), Z.eqb_refl. intros [_ F]. discriminate F.
Qed.

Lemma io_get_insert : forall k tok id m,
  io_get id (io_insert k tok m) = if k =? id then Some tok else io_get id m.
Proof.
  intros k tok id m. unfold io_insert, io_remove. simpl. destruct (k =? id) eqn:E; [reflexivity|].
  rewrite (io_get_filter (fun k' => negb (k' =? k))), Z.eqb_sym, E. reflexivity.
Qed.
Lemma keys_insert : forall k tok x (m : iomap),
  In x (map fst (io_insert k tok m)) <-> x = k \/ In x (map fst m).
Proof.
  intros k tok x m. unfold io_insert, io_remove. simpl.
  rewrite (keys_filter (fun k' => negb (k' =? k))). destruct (Z.eqb_spec x k); simpl; intuition congruence.
Qed.

Lemma io_get_notin : forall id m, ~ In id (map fst m) -> io_get id m = None.
Proof.
  intros id m. induction m as [|[k v] r IH]; simpl; intro H; [reflexivity|].
  destruct (Z.eqb_spec k id) as [E|_]; [tauto|]. apply IH. tauto.
Qed.
Lemma io_get_in : forall id m, In id (map fst m) -> exists v, io_get id m = Some v.
Proof.
  intros id m. induction m as [|[k v] r IH]; simpl; intro H; [destruct H|].
  destruct (Z.eqb_spec k id) as [_|N]; [eexists; reflexivity|]. apply IH. tauto.
Qed.
Lemma io_get_first : forall (m : iomap) k v,
  NoDup (map fst m) -> In (k, v) m -> io_get k m = Some v.
Proof.
  induction m as [|[k' v'] r IH]; intros k v Hnd Hin; simpl in *; [destruct Hin|].
  inversion Hnd; subst. destruct Hin as [Hin|Hin].
  - injection Hin as -> ->. rewrite Z.eqb_refl. reflexivity.
  - destruct (Z.eqb_spec k' k) as [->|_]; [|apply IH; assumption].
    exfalso. apply H1. apply (in_map fst _ _ Hin).
Qed.

Lemma dedup_In : forall l seen x, In x (dedup seen l) <-> In x l /\ ~ In x seen.
Proof.
  induction l as [|y t IH]; intros seen x; simpl; [tauto|].
  destruct (mem y seen) eqn:E.
  - apply mem_In in E. rewrite IH. intuition congruence.
  - apply mem_nIn in E. simpl. rewrite IH. simpl.
    destruct (Z.eq_dec y x); intuition congruence.
Qed.
Lemma dedup_NoDup : forall l seen, NoDup (dedup seen l).
Proof.
  induction l as [|y t IH]; intros seen; simpl; [constructor|].
  destruct (mem y seen); [apply IH|]. constructor; [|apply IH].
  intro H. apply dedup_In in H. destruct H as [_ H]. apply H. left. reflexivity.
Qed.

Lemma needed_In : forall current D x,
  In x (needed_ips current D) <-> In x D /\ ~ In x current.
Proof.
  intros current D x. unfold needed_ips. rewrite filter_In, dedup_In, negb_true_iff, mem_nIn.
  simpl. tauto.
Qed.
Lemma needed_NoDup : forall current D, NoDup (needed_ips current D).
Proof. intros. unfold needed_ips. apply NoDup_filter. apply dedup_NoDup. Qed.

(** Which links [create] makes depends on the addresses that get a socket and on the oracle
    alone; the map and the token counter only record them. *)
Fixpoint new_links (ips : list addr) (fresh : list (Z * list Z)) : list link :=
  match ips, fresh with
  | ip :: t, (id, st) :: fr => {| l_lab := ip; l_ip := ip; l_id := id; l_st := st |} :: new_links t fr
  | _, _ => []
  end.
Fixpoint insert_all (ks : list Z) (tok : Z) (m : iomap) : iomap :=
  match ks with
  | [] => m
  | k :: r => insert_all r (tok + 1) (io_insert k tok m)
  end.

Lemma create_is_new_links : forall ips fail fresh m tok,
  let ls := new_links (filter (fun ip => negb (mem ip fail)) ips) fresh in
  create ips fail fresh m tok = (ls, insert_all (map l_id ls) tok m, tok + blen ls).
Proof.
  induction ips as [|ip t IH]; intros fail fresh m tok; simpl.
  - rewrite Z.add_0_r. reflexivity.
  - destruct (mem ip fail); simpl; [apply IH|].
    destruct fresh as [|[id st] fr]; rewrite IH.
    + destruct (filter _ t); simpl; rewrite Z.add_0_r; reflexivity.
    + simpl. rewrite blen_cons. f_equal. lia.
Qed.

Lemma new_links_labs : forall ips fresh,
  (length ips <= length fresh)%nat -> map l_lab (new_links ips fresh) = ips.
Proof.
  induction ips as [|ip t IH]; intros [|[id st] fr] H; simpl in *; [reflexivity..|lia|].
  rewrite IH by lia. reflexivity.
Qed.
Lemma new_links_ip : forall ips fresh, Forall (fun c => l_ip c = l_lab c) (new_links ips fresh).
Proof.
  induction ips as [|ip t IH]; intros [|[id st] fr]; simpl; constructor; [reflexivity|apply IH].
Qed.
Lemma new_links_ids_in : forall ips fresh x,
  In x (map l_id (new_links ips fresh)) -> In x (map fst fresh).
Proof.
  induction ips as [|ip t IH]; intros [|[id st] fr] x; simpl; try tauto.
  intros [H|H]; [left; exact H|right; exact (IH fr x H)].
Qed.
Lemma new_links_ids_NoDup : forall ips fresh,
  NoDup (map fst fresh) -> NoDup (map l_id (new_links ips fresh)).
Proof.
  induction ips as [|ip t IH]; intros [|[id st] fr] H; simpl; try constructor; inversion H; subst.
  - intro Hin. apply new_links_ids_in in Hin. contradiction.
  - apply IH. assumption.
Qed.

Lemma insert_all_get : forall ks tok m id,
  ~ In id ks -> io_get id (insert_all ks tok m) = io_get id m.
Proof.
  induction ks as [|k r IH]; intros tok m id H; simpl in *; [reflexivity|].
  rewrite IH, io_get_insert by tauto. destruct (Z.eqb_spec k id); [tauto|reflexivity].
Qed.
Lemma insert_all_keys : forall ks tok m x,
  In x (map fst (insert_all ks tok m)) <-> In x (map fst m) \/ In x ks.
Proof.
  induction ks as [|k r IH]; intros tok m x; simpl; [tauto|].
  rewrite IH, keys_insert. intuition congruence.
Qed.
Lemma insert_all_NoDup : forall ks tok m,
  NoDup (map fst m) -> NoDup (map fst (insert_all ks tok m)).
Proof.
  induction ks as [|k r IH]; intros tok m H; simpl; [exact H|]. apply IH, NoDup_keys_cons, H.
Qed.

Definition removed_ids (s : state) (D : list addr) : list Z :=
  map l_id (filter (fun c => negb (keep D c)) (conns s)).
Definition kept (s : state) (D : list addr) : list link := filter (keep D) (conns s).

Lemma purge_spec : forall ids t m,
  purge ids t m = (filter (fun p => negb (mem (e_id (snd p)) ids)) t,
                   filter (fun p => negb (mem (fst p) ids)) m).
Proof.
  unfold purge. induction ids as [|id r IH]; intros t m; simpl.
  - rewrite !filter_all; auto.
  - rewrite IH. simpl. unfold trk_remove, io_remove, mem. rewrite !filter_filter.
    f_equal; apply filter_ext; intro p; simpl; rewrite (Z.eqb_sym _ id), negb_orb; reflexivity.
Qed.

Lemma kept_in : forall s D c, In c (kept s D) <-> In c (conns s) /\ keep D c = true.
Proof. intros. unfold kept. apply filter_In. Qed.
Lemma removed_ids_in : forall s D x,
  In x (removed_ids s D) <-> exists c, In c (conns s) /\ keep D c = false /\ l_id c = x.
Proof.
  intros s D x. unfold removed_ids. rewrite in_map_iff. split.
  - intros [c [Hc Hin]]. apply filter_In in Hin. destruct Hin as [Hin Hk].
    exists c. destruct (keep D c); [discriminate|]. auto.
  - intros [c [Hin [Hk Hc]]]. exists c. split; [exact Hc|]. apply filter_In. rewrite Hk. auto.
Qed.

Lemma removed_ids_incl : forall s D x, In x (removed_ids s D) -> In x (ids s).
Proof. intros s D x H. apply removed_ids_in in H. destruct H as [c [Hc [_ <-]]]. apply in_map. exact Hc. Qed.

Lemma kept_not_removed : forall s D c,
  NoDup (ids s) -> In c (kept s D) -> ~ In (l_id c) (removed_ids s D).
Proof.
  intros s D c Hnd Hc Hr. apply kept_in in Hc. destruct Hc as [Hc Hk].
  apply removed_ids_in in Hr. destruct Hr as [d [Hd [Hkd Hid]]].
  assert (d = c) by (eapply (NoDup_map_inj l_id); eauto). subst d. congruence.
Qed.

Lemma ids_split : forall s D x,
  NoDup (ids s) ->
  (In x (ids s) /\ ~ In x (removed_ids s D)) <-> In x (map l_id (kept s D)).
Proof.
  intros s D x Hnd. split.
  - intros [Hin Hn]. unfold ids in Hin. apply in_map_iff in Hin. destruct Hin as [c [Hc Hin]].
    apply in_map_iff. exists c. split; [exact Hc|]. apply kept_in. split; [exact Hin|].
    destruct (keep D c) eqn:E; [reflexivity|]. exfalso. apply Hn. apply removed_ids_in. exists c. auto.
  - intro Hin. apply in_map_iff in Hin. destruct Hin as [c [Hc Hin]]. subst x. split.
    + apply kept_in in Hin. unfold ids. apply in_map. tauto.
    + apply kept_not_removed; assumption.
Qed.

(** the code's [connections.len() != before] test *)
Lemma changed_iff_removed : forall s D,
  Nat.eqb (length (kept s D)) (length (conns s)) = match removed_ids s D with [] => true | _ => false end.
Proof.
  intros s D. unfold removed_ids, kept. pose proof (filter_length_split (keep D) (conns s)) as H.
  destruct (filter (fun c => negb (keep D c)) (conns s)); simpl in *;
    [apply Nat.eqb_eq|apply Nat.eqb_neq]; lia.
Qed.
Lemma removed_ids_nil_iff : forall s D, removed_ids s D = [] <-> forall c, In c (conns s) -> keep D c = true.
Proof.
  intros s D. split.
  - intros H c Hc. destruct (keep D c) eqn:E; [reflexivity|].
    assert (Hin : In (l_id c) (removed_ids s D)) by (apply removed_ids_in; eauto).
    rewrite H in Hin. destruct Hin.
  - intro H. destruct (removed_ids s D) as [|x r] eqn:E; [reflexivity|].
    assert (Hin : In x (removed_ids s D)) by (rewrite E; left; reflexivity).
    apply removed_ids_in in Hin. destruct Hin as [c [Hc [Hk _]]]. rewrite (H c Hc) in Hk. discriminate.
Qed.
Lemma removed_ids_nil_kept : forall s D, removed_ids s D = [] -> kept s D = conns s.
Proof. intros s D H. apply filter_all, removed_ids_nil_iff, H. Qed.

(** [apply_changes] is a retain phase (drop every link that is not listed, with its I/O
    entry and tracker records, and forget the routing choice if any was dropped) followed
    by a create phase, which is also all that startup does. *)
Definition retain (D : list addr) (s : state) : state :=
  {| conns := kept s D;
     io := filter (fun p => negb (mem (fst p) (removed_ids s D))) (io s);
     trk := filter (fun p => negb (mem (e_id (snd p)) (removed_ids s D))) (trk s);
     sel := match removed_ids s D with [] => sel s | _ => None end;
     pend := pend s; next_tok := next_tok s |}.
Definition grow (ips fail : list addr) (fresh : list (Z * list Z)) (s : state) : state :=
  let ls := new_links (filter (fun ip => negb (mem ip fail)) ips) fresh in
  {| conns := conns s ++ ls; io := insert_all (map l_id ls) (next_tok s) (io s); trk := trk s;
     sel := sel s; pend := pend s; next_tok := next_tok s + blen ls |}.

Lemma next_create : forall s ips fail fresh now,
  next s (OCreate ips fail fresh now) = (grow ips fail fresh s, None, ips).
Proof. intros. simpl. rewrite create_is_new_links. reflexivity. Qed.
Lemma apply_is_retain_then_grow : forall D fail fresh s,
  let need := needed_ips (map l_lab (conns s)) D in
  apply_changes D fail fresh s = (grow need fail fresh (retain D s), need).
Proof.
  intros D fail fresh s. unfold apply_changes, retain. fold (kept s D) (removed_ids s D).
  rewrite changed_iff_removed. destruct (removed_ids s D) as [|x r]; simpl.
  - rewrite !filter_all by reflexivity. rewrite create_is_new_links. reflexivity.
  - rewrite purge_spec, create_is_new_links. reflexivity.
Qed.

Record Inv (s : state) : Prop := {
  inv_ids : NoDup (ids s);
  inv_trk_keys : NoDup (map fst (trk s));
  inv_io_keys : NoDup (map fst (io s));
  inv_io_ids : forall x, In x (map fst (io s)) <-> In x (ids s);
  inv_trk_ids : forall k e, In (k, e) (trk s) -> In (e_id e) (ids s);
  inv_sel : forall i, sel s = Some i -> 0 <= i < blen (conns s)
}.

Lemma init_inv : Inv init.
Proof.
  constructor; simpl; try constructor; try tauto; try discriminate.
Qed.

Lemma retain_inv : forall D s, Inv s -> Inv (retain D s).
Proof.
  intros D s [I1 I2 I3 I4 I5 I6]. constructor; unfold ids; simpl.
  - apply NoDup_map_filter. exact I1.
  - apply NoDup_map_filter. exact I2.
  - apply NoDup_map_filter. exact I3.
  - intro x. rewrite (keys_filter (fun k => negb (mem k (removed_ids s D)))), negb_true_iff, mem_nIn, I4.
    apply ids_split. exact I1.
  - intros k e Hin. apply filter_In in Hin. destruct Hin as [Hin Hm].
    apply negb_true_iff, mem_nIn in Hm. apply ids_split; [exact I1|]. split; [eapply I5; exact Hin|exact Hm].
  - intros i Hi. destruct (removed_ids s D) eqn:ER; [|discriminate].
    rewrite (removed_ids_nil_kept s D ER). apply I6. exact Hi.
Qed.

Lemma grow_inv : forall ips fail fresh s,
  Inv s -> NoDup (map fst fresh) -> (forall id, In id (map fst fresh) -> ~ In id (ids s)) ->
  Inv (grow ips fail fresh s).
Proof.
  intros ips fail fresh s [I1 I2 I3 I4 I5 I6] Hf1 Hf2.
  constructor; unfold ids in *; simpl; rewrite ?map_app.
  - apply NoDup_app; [exact I1|exact (new_links_ids_NoDup _ _ Hf1)|].
    intros x Hx Hy. exact (Hf2 x (new_links_ids_in _ _ x Hy) Hx).
  - exact I2.
  - exact (insert_all_NoDup _ _ _ I3).
  - intro x. rewrite insert_all_keys, in_app_iff, I4. tauto.
  - intros k e Hin. apply in_or_app. left. eapply I5. exact Hin.
  - intros i Hi. apply I6 in Hi. rewrite blen_app.
    pose proof (blen_nonneg (new_links (filter (fun ip => negb (mem ip fail)) ips) fresh)). lia.
Qed.

(** The effect of one apply, field by field.  [added] are the links it makes: one per listed address
    that no link has and whose socket could be created.  A lemma takes, once the section is closed,
    those of the two hypotheses that its proof uses, so none that is declared below it. *)
Definition added (D fail : list addr) (fresh : list (Z * list Z)) (s : state) : list link :=
  new_links (filter (fun ip => negb (mem ip fail)) (needed_ips (map l_lab (conns s)) D)) fresh.

Section Apply.
Variables (D fail : list addr) (fresh : list (Z * list Z)) (s : state).
Let s' := fst (apply_changes D fail fresh s).

Lemma apply_conns : conns s' = kept s D ++ added D fail fresh s.
Proof. subst s'. rewrite apply_is_retain_then_grow. reflexivity. Qed.
Lemma apply_sel : sel s' = match removed_ids s D with [] => sel s | _ => None end.
Proof. subst s'. rewrite apply_is_retain_then_grow. reflexivity. Qed.
Lemma apply_attempts : snd (apply_changes D fail fresh s) = needed_ips (map l_lab (conns s)) D.
Proof. rewrite apply_is_retain_then_grow. reflexivity. Qed.
Lemma added_ip : forall c, In c (added D fail fresh s) -> l_ip c = l_lab c.
Proof. apply Forall_forall, new_links_ip. Qed.
Lemma added_has_io : forall c,
  In c (added D fail fresh s) -> exists tok, io_get (l_id c) (io s') = Some tok.
Proof.
  intros c Hc. subst s'. rewrite apply_is_retain_then_grow. apply io_get_in. simpl.
  apply insert_all_keys. right. apply in_map, Hc.
Qed.

Hypothesis HI : Inv s.

Lemma apply_trk_get : forall seq now,
  trk_get seq now (trk s') =
  match trk_get seq now (trk s) with
  | Some j => if mem j (removed_ids s D) then None else Some j
  | None => None
  end.
Proof.
  intros seq now. subst s'. rewrite apply_is_retain_then_grow. apply trk_get_filter, inv_trk_keys, HI.
Qed.
Lemma apply_trk_removed : forall id seq now,
  In id (removed_ids s D) -> trk_get seq now (trk s') <> Some id.
Proof.
  intros id seq now Hid. rewrite apply_trk_get.
  destruct (trk_get seq now (trk s)) as [j|]; [|discriminate].
  destruct (mem j (removed_ids s D)) eqn:E; [discriminate|].
  intro H. injection H as ->. apply mem_In in Hid. congruence.
Qed.
Lemma apply_trk_other : forall seq now j,
  trk_get seq now (trk s) = Some j -> ~ In j (removed_ids s D) -> trk_get seq now (trk s') = Some j.
Proof. intros seq now j Hj Hn. apply mem_nIn in Hn. rewrite apply_trk_get, Hj, Hn. reflexivity. Qed.

(** Of what follows only [apply_inv], [apply_io_kept] and [apply_removed_gone] use [HI] as well. *)
Hypothesis Hf : fresh_ok s (needed_ips (map l_lab (conns s)) D) fail fresh.

Lemma added_labs :
  map l_lab (added D fail fresh s) =
  filter (fun ip => negb (mem ip fail)) (needed_ips (map l_lab (conns s)) D).
Proof. apply new_links_labs, Hf. Qed.
Lemma added_labs_In : forall a,
  In a (map l_lab (added D fail fresh s)) <-> In a D /\ ~ In a (map l_lab (conns s)) /\ ~ In a fail.
Proof. intro a. rewrite added_labs, filter_In, needed_In, negb_true_iff, mem_nIn. tauto. Qed.
Lemma added_labs_NoDup : NoDup (map l_lab (added D fail fresh s)).
Proof. rewrite added_labs. apply NoDup_filter, needed_NoDup. Qed.
Lemma added_fresh : forall x, In x (map l_id (added D fail fresh s)) -> ~ In x (ids s).
Proof. intros x Hx. apply Hf. exact (new_links_ids_in _ _ x Hx). Qed.

(** an id of [s] is not fresh, so its I/O entry is what the retain phase left *)
Lemma apply_io_get : forall id, In id (ids s) ->
  io_get id (io s') = if mem id (removed_ids s D) then None else io_get id (io s).
Proof.
  intros id Hid. subst s'. rewrite apply_is_retain_then_grow. simpl.
  rewrite insert_all_get by (intro Hin; exact (added_fresh id Hin Hid)).
  rewrite (io_get_filter (fun k => negb (mem k (removed_ids s D)))). destruct (mem id (removed_ids s D)); reflexivity.
Qed.
Lemma apply_io_kept : forall c, In c (kept s D) -> io_get (l_id c) (io s') = io_get (l_id c) (io s).
Proof.
  intros c Hc. rewrite apply_io_get by (apply in_map; apply kept_in in Hc; tauto).
  apply (kept_not_removed s D c (inv_ids s HI)), mem_nIn in Hc. rewrite Hc. reflexivity.
Qed.
Lemma apply_io_removed : forall id, In id (removed_ids s D) -> io_get id (io s') = None.
Proof.
  intros id Hid. rewrite apply_io_get by exact (removed_ids_incl s D id Hid).
  apply mem_In in Hid. rewrite Hid. reflexivity.
Qed.
Lemma apply_removed_gone : forall id, In id (removed_ids s D) -> ~ In id (ids s').
Proof.
  intros id Hid. unfold ids. rewrite apply_conns, map_app, in_app_iff. intros [H|H].
  - apply (ids_split s D id (inv_ids s HI)) in H. tauto.
  - exact (added_fresh id H (removed_ids_incl s D id Hid)).
Qed.

Lemma apply_inv : Inv s'.
Proof.
  subst s'. rewrite apply_is_retain_then_grow. apply grow_inv; [apply retain_inv; exact HI|apply Hf|].
  intros id Hid Hin. apply (ids_split s D id (inv_ids s HI)) in Hin.
  apply (proj1 (proj2 Hf) id Hid). tauto.
Qed.
End Apply.

Lemma set_states_map : forall {B} (f : link -> B), (forall c st, f (with_st c st) = f c) ->
  forall ls sts, map f (set_states ls sts) = map f ls.
Proof.
  intros B f Hf. induction ls as [|c t IH]; intros [|st ts]; simpl; [reflexivity..|].
  rewrite Hf, IH. reflexivity.
Qed.
Lemma upd_nth_map : forall {B} (f : link -> B), (forall c st, f (with_st c st) = f c) ->
  forall n st ls, map f (upd_nth n st ls) = map f ls.
Proof.
  intros B f Hf. induction n as [|n IH]; intros st [|c t]; simpl; [reflexivity| |reflexivity|].
  - rewrite Hf. reflexivity.
  - rewrite IH. reflexivity.
Qed.

Lemma set_states_ids : forall ls sts, map l_id (set_states ls sts) = map l_id ls.
Proof. apply set_states_map. reflexivity. Qed.
Lemma set_states_labs : forall ls sts, map l_lab (set_states ls sts) = map l_lab ls.
Proof. apply set_states_map. reflexivity. Qed.
Lemma set_states_length : forall ls sts, length (set_states ls sts) = length ls.
Proof. intros. rewrite <- (map_length l_id (set_states ls sts)), set_states_ids. apply map_length. Qed.
Lemma upd_nth_ids : forall n st ls, map l_id (upd_nth n st ls) = map l_id ls.
Proof. apply upd_nth_map. reflexivity. Qed.
Lemma upd_nth_labs : forall n st ls, map l_lab (upd_nth n st ls) = map l_lab ls.
Proof. apply upd_nth_map. reflexivity. Qed.

Lemma nth_link_some : forall i ls c,
  nth_link i ls = Some c -> 0 <= i < blen ls /\ In c ls.
Proof.
  intros i ls c. unfold nth_link. destruct (0 <=? i) eqn:E; [|discriminate].
  intro H. split; [|eapply nth_error_In; exact H].
  assert (Hlt : (Z.to_nat i < length ls)%nat) by (apply nth_error_Some; congruence).
  unfold blen. lia.
Qed.
Lemma nth_link_app : forall i l a c, nth_link i l = Some c -> nth_link i (l ++ a) = Some c.
Proof.
  intros i l a c. unfold nth_link. destruct (0 <=? i); [|discriminate].
  intro H. rewrite nth_error_app1; [exact H|]. apply nth_error_Some. congruence.
Qed.

(** [Inv] reads the link list only through the ids (and the length, which they fix), so
    the ops that rewrite protocol states in place are covered by three statements about a
    state [s2] with the ids of [s]: nothing else differs, a packet was tracked on a link,
    a link got a new socket. *)
Lemma ids_blen : forall s s2, ids s2 = ids s -> blen (conns s2) = blen (conns s).
Proof.
  intros s s2 E. rewrite <- (blen_map l_id (conns s2)), <- (blen_map l_id (conns s)).
  exact (f_equal blen E).
Qed.

Lemma Inv_frame : forall s s2,
  ids s2 = ids s -> io s2 = io s -> trk s2 = trk s -> sel s2 = sel s -> Inv s -> Inv s2.
Proof.
  intros s s2 E1 E2 E3 E4 [I1 I2 I3 I4 I5 I6]. pose proof (ids_blen s s2 E1) as EL.
  constructor; rewrite ?E1, ?E2, ?E3, ?E4, ?EL; assumption.
Qed.

Lemma Inv_track : forall s s2 i c seq now,
  Inv s -> nth_link i (conns s) = Some c ->
  ids s2 = ids s -> io s2 = io s ->
  trk s2 = match seq with Some q => trk_insert q (l_id c) now (trk s) | None => trk s end ->
  sel s2 = Some i -> Inv s2.
Proof.
  intros s s2 i c seq now [I1 I2 I3 I4 I5 I6] EN E1 E2 E3 E4. pose proof (ids_blen s s2 E1) as EL.
  apply nth_link_some in EN. destruct EN as [Hr Hc].
  constructor; rewrite ?E1, ?E2, ?E3, ?E4, ?EL; try assumption.
  - destruct seq as [q|]; [apply NoDup_keys_cons|]; exact I2.
  - intros k e Hin. destruct seq as [q|]; [|eapply I5; exact Hin].
    destruct Hin as [Hin|Hin].
    + injection Hin as _ <-. simpl. apply in_map. exact Hc.
    + apply filter_In in Hin. eapply I5. apply Hin.
  - intros j Hj. injection Hj as <-. exact Hr.
Qed.

Lemma Inv_resock : forall s s2 c tok,
  Inv s -> In c (conns s) ->
  ids s2 = ids s -> io s2 = io_insert (l_id c) tok (io s) -> trk s2 = trk s -> sel s2 = sel s ->
  Inv s2.
Proof.
  intros s s2 c tok [I1 I2 I3 I4 I5 I6] Hc E1 E2 E3 E4. pose proof (ids_blen s s2 E1) as EL.
  constructor; rewrite ?E1, ?E2, ?E3, ?E4, ?EL; try assumption.
  - apply NoDup_keys_cons. exact I3.
  - intro x. rewrite keys_insert, I4. split; [|tauto].
    intros [->|H]; [apply in_map; exact Hc|exact H].
Qed.

Lemma next_inv : forall s o, Inv s -> wf_op s o -> Inv (fst (fst (next s o))).
Proof.
  intros s o HI Hwf. destruct o as [ips fail fresh now|file oc now|fail fresh now|ips fail fresh now
                                  |fwd seq now sts|i st|i st].
  - rewrite next_create. destruct Hwf as [Hf1 [Hf2 _]]. apply grow_inv; assumption.
  - simpl. destruct (analyze_file oc file); [|exact HI].
    apply (Inv_frame s); [reflexivity..|exact HI].
  - simpl in *. destruct (pend s) as [ips|]; [|exact HI].
    pose proof (apply_inv ips fail fresh s HI Hwf) as H.
    destruct (apply_changes ips fail fresh s) as [s' att].
    apply (Inv_frame s'); [reflexivity..|exact H].
  - simpl in *. pose proof (apply_inv ips fail fresh s HI Hwf) as H.
    destruct (apply_changes ips fail fresh s) as [s' att]. exact H.
  - cbn [next fst]. set (s1 := match fwd with Some _ => _ | None => _ end).
    apply (Inv_frame s1); [apply set_states_ids|reflexivity..|]. subst s1.
    destruct fwd as [i|]; [|exact HI]. destruct (nth_link i (conns s)) as [c|] eqn:EN; [|exact HI].
    eapply Inv_track; [exact HI|exact EN|reflexivity..].
  - simpl. destruct (nth_link i (conns s)) as [c|]; [|exact HI].
    apply (Inv_frame s); [apply upd_nth_ids|reflexivity..|exact HI].
  - simpl. destruct (nth_link i (conns s)) as [c|] eqn:EN; [|exact HI].
    apply nth_link_some in EN.
    eapply Inv_resock; [exact HI|apply EN|apply upd_nth_ids|reflexivity..].
Qed.

Lemma final_inv : forall ops s, Inv s -> wf_ops s ops -> Inv (final_from s ops).
Proof.
  induction ops as [|o t IH]; intros s HI Hwf; simpl in *; [exact HI|].
  destruct Hwf as [H1 H2]. apply IH; [apply next_inv; assumption|exact H2].
Qed.
