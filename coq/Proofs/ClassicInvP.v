(** ClassicInvP.v — packet-log facts, preservation of the link
    invariant by every handler of Model/Conn.v the classic shell uses, and the window
    rules of the model against the reference's (ref_ack_earned, ref_ack_global, ref_nak). *)
From Coq Require Import ZifyBool.
From Srtla Require Import Base BaseP Constants Conn ConnP Classic ClassicRef ClassicP.

Lemma log_remove_nodup k l : NoDup (map fst l) -> NoDup (map fst (log_remove k l)).
Proof. intros H. rewrite log_remove_keys. apply NoDup_filter. exact H. Qed.

Lemma log_insert_nodup k v l : NoDup (map fst l) -> NoDup (map fst (log_insert k v l)).
Proof.
  intros H. unfold log_insert. cbn. constructor; [|apply log_remove_nodup; exact H].
  rewrite log_remove_keys. intros Hin. apply filter_In in Hin. destruct Hin as [_ E].
  rewrite Z.eqb_refl in E. discriminate.
Qed.

Lemma ack_window w inf :
  0 <= w <= WB -> 0 <= inf -> fst (ack_classic w inf) = ref_ack_earned w inf.
Proof.
  intros Hw Hi. rewrite WB_val in Hw. destruct consts as (K1 & K2 & _ & _ & K5 & _).
  unfold ack_classic, ref_ack_earned. rewrite K2, K5.
  replace (w + WINDOW_INCR - 1) with (w + 29) by lia.
  unfold sat_mul_i32, sat_i32, clamp, i32_min, i32_max, two31.
  match goal with |- fst (if ?b then _ else _) = _ => assert (Hb : b = (w <? inf * 1000)) by lia; rewrite Hb end.
  destruct (w <? inf * 1000); reflexivity.
Qed.

Lemma ack_window_bound w inf : 0 <= w <= WB -> 0 <= ref_ack_earned w inf <= WB.
Proof. intros H. rewrite WB_val in *. unfold ref_ack_earned. destruct (w <? inf * 1000); lia. Qed.

Lemma cong_nak_window c w now : snd (fst (cong_nak c w now)) = Z.max (w - WINDOW_DECR) WINDOW_FLOOR.
Proof. exact (proj1 (proj2 (cong_nak_spec c w now))). Qed.

Lemma nak_ref w : Z.max (w - WINDOW_DECR) WINDOW_FLOOR = ref_nak w.
Proof. destruct consts as (_ & _ & K3 & K4 & _). rewrite K3, K4. reflexivity. Qed.

Lemma ref_nak_bound w : 0 <= w <= WB -> 0 <= ref_nak w <= WB.
Proof. intros H. rewrite WB_val in *. unfold ref_nak. lia. Qed.

Lemma global_bound c r w : 0 <= w <= WB -> 0 <= ref_ack_global c r w <= WB.
Proof. intros H. rewrite WB_val in *. unfold ref_ack_global. destruct (c && r); lia. Qed.

(** fresh, re-registered and recovering links all start from an empty log and the default window *)
Lemma inv_fresh c : in_flight c = 0 -> log c = [] -> window c = WINDOW_DEFAULT -> inv_link c.
Proof.
  intros Hi Hl Hw. unfold inv_link. rewrite Hi, Hl, Hw. destruct consts as (_ & _ & _ & _ & _ & K6). rewrite K6, WB_val.
  split; [reflexivity|]. split; [constructor|lia].
Qed.

Lemma inv_register c seq t : inv_link c -> inv_link (register_packet c seq t).
Proof.
  intros (H1 & H2 & H3). unfold inv_link, register_packet. cbn [in_flight log window].
  split; [reflexivity|]. split; [exact (log_insert_nodup seq t _ H2)|exact H3].
Qed.

Lemma inv_register_all q : forall c, inv_link c -> inv_link (register_all c q).
Proof.
  unfold register_all. induction q as [|[sq t] q IH]; intros c H; cbn; [exact H|].
  apply IH. destruct sq; cbn; [apply inv_register|]; exact H.
Qed.

Lemma inv_srt_ack c a : inv_link c -> inv_link (handle_srt_ack c a).
Proof.
  intros (H1 & H2 & H3). unfold handle_srt_ack.
  destruct (a <=? hwm c); [exact (conj H1 (conj H2 H3))|].
  unfold inv_link. cbn [in_flight log window]. split; [reflexivity|]. split; [|exact H3].
  destruct ((Z.abs (a - hwm c) <=? ACK_FAST_PATH_RANGE) && negb (hwm c =? i32_min));
    apply NoDup_map_filter; exact H2.
Qed.

Lemma nak_fst c seq now :
  fst (handle_nak c seq now) =
  if log_mem seq (log c) then
    {| cid := cid c; connected := connected c; window := Z.max (window c - WINDOW_DECR) WINDOW_FLOOR;
       in_flight := blen (log_remove seq (log c)); log := log_remove seq (log c); hwm := hwm c;
       last_recv := last_recv c; proof := proof c; cg := fst (fst (cong_nak (cg c) (window c) now));
       ovf := ovf c || snd (cong_nak (cg c) (window c) now) |}
  else c.
Proof.
  unfold handle_nak. destruct (log_mem seq (log c)); [|reflexivity].
  pose proof (cong_nak_window (cg c) (window c) now) as Hw.
  destruct (cong_nak (cg c) (window c) now) as [[g w] o]. cbn in *. subst w. reflexivity.
Qed.

Lemma inv_nak c seq now : inv_link c -> inv_link (fst (handle_nak c seq now)).
Proof.
  intros (H1 & H2 & H3). rewrite nak_fst. destruct (log_mem seq (log c)); [|exact (conj H1 (conj H2 H3))].
  unfold inv_link. cbn [in_flight log window]. split; [reflexivity|]. split; [apply log_remove_nodup; exact H2|].
  rewrite nak_ref. apply ref_nak_bound. exact H3.
Qed.

Lemma specific_fst c seq now :
  fst (handle_srtla_ack_specific c seq true now) =
  if log_mem seq (log c) then
    {| cid := cid c; connected := connected c;
       window := fst (ack_classic (window c) (blen (log_remove seq (log c))));
       in_flight := blen (log_remove seq (log c)); log := log_remove seq (log c); hwm := hwm c;
       last_recv := last_recv c; proof := now; cg := cg c;
       ovf := ovf c || snd (ack_classic (window c) (blen (log_remove seq (log c)))) |}
  else c.
Proof.
  unfold handle_srtla_ack_specific. destruct (log_mem seq (log c)); [|reflexivity].
  destruct (ack_classic (window c) (blen (log_remove seq (log c)))) as [w o]. reflexivity.
Qed.

Lemma inv_specific c seq now : inv_link c -> inv_link (fst (handle_srtla_ack_specific c seq true now)).
Proof.
  intros (H1 & H2 & H3). rewrite specific_fst. destruct (log_mem seq (log c)); [|exact (conj H1 (conj H2 H3))].
  unfold inv_link. cbn [in_flight log window]. split; [reflexivity|]. split; [apply log_remove_nodup; exact H2|].
  rewrite ack_window by (try exact H3; apply blen_nonneg). apply ack_window_bound. exact H3.
Qed.

Lemma global_window c :
  window (handle_srtla_ack_global c) =
  ref_ack_global (connected c) (match last_recv c with Some _ => true | None => false end) (window c).
Proof.
  unfold handle_srtla_ack_global, ref_ack_global. destruct consts as (_ & _ & _ & _ & K5 & _).
  destruct (connected c && match last_recv c with Some _ => true | None => false end); cbn [window];
    [rewrite K5|]; reflexivity.
Qed.

Lemma global_fields c :
  connected (handle_srtla_ack_global c) = connected c /\ last_recv (handle_srtla_ack_global c) = last_recv c /\
  log (handle_srtla_ack_global c) = log c /\ in_flight (handle_srtla_ack_global c) = in_flight c.
Proof.
  unfold handle_srtla_ack_global.
  destruct (connected c && match last_recv c with Some _ => true | None => false end); cbn; auto.
Qed.

Lemma inv_global c : inv_link c -> inv_link (handle_srtla_ack_global c).
Proof.
  intros (H1 & H2 & H3). destruct (global_fields c) as (_ & _ & Gl & Gi).
  unfold inv_link. rewrite Gl, Gi, global_window. split; [exact H1|]. split; [exact H2|apply global_bound; exact H3].
Qed.

Lemma inv_set_conn c b lr : inv_link c -> inv_link (set_conn c b lr).
Proof. intros H. exact H. Qed.

Lemma inv_set_window c w : 0 <= w <= WB -> inv_link c -> inv_link (set_window c w).
Proof.
  intros Hw (H1 & H2 & _). unfold inv_link, set_window. cbn [in_flight log window].
  split; [exact H1|]. split; [exact H2|exact Hw].
Qed.
