(** The C11 clauses as statements about [select] in enhanced mode. *)
From Coq Require Import ZArith List Bool Lia Floats.
From Srtla Require Import Base BaseP FConstants Select Run_Sel Run_C11 SelectP C11P C11MonP.
Import ListNotations.
Local Open Scope Z_scope.

(** the oracle's score table for a select: gate pass first ([gate_of], the model's own
    [apply_stall_gate]), then one entry per link *)
Definition gate_of (s : list link) (now : Z) (cfg : config) : list link := apply_stall_gate s now cfg.
Definition au_of (s : list link) (now : Z) (cfg : config) : bool :=
  existsb (unconstrained now) (gate_of s now cfg).
Definition table (s : list link) (now : Z) (cfg : config) (exps : list PrimFloat.float) : list (option PrimFloat.float) :=
  spec_scores (au_of s now cfg) (enhanced_quality cfg) now (gate_of s now cfg) exps.

Lemma enhanced_res s last now cfg exps :
  c_mode cfg = Enhanced ->
  fst (select s last now cfg exps) = decide last (pick (table s now cfg exps) last 0 a0).
Proof.
  intros Em. unfold select, table, au_of, gate_of, enhanced_quality. rewrite Em.
  rewrite enhanced_select_eq. cbv zeta. now rewrite score_list_spec.
Qed.

Theorem leave_only_if s l now cfg exps i :
  c_mode cfg = Enhanced -> fst (select s (Some l) now cfg exps) = Some i -> i <> l ->
  nths (table s now cfg exps) l = None \/
  exists sl sj, nths (table s now cfg exps) l = Some sl /\ In (Some sj) (table s now cfg exps) /\
                (sj <? sl * SWITCH_THRESHOLD)%float = false.
Proof.
  intros Em E Hne. rewrite (enhanced_res _ _ _ _ _ Em) in E.
  destruct (nths (table s now cfg exps) l) as [sl|] eqn:El; [right|now left].
  pose proof (decide_leave _ l i sl E Hne El) as B. unfold all_below in B.
  apply forallb_false_ex in B. destruct B as ([sj|] & Hin & Hf); [|discriminate].
  exists sl, sj. repeat split; auto.
Qed.

Theorem chosen_is_candidate s last now cfg exps i :
  c_mode cfg = Enhanced -> fst (select s last now cfg exps) = Some i ->
  exists c, nth_error (gate_of s now cfg) i = Some c /\ spec_candidate (au_of s now cfg) now c = true.
Proof.
  intros Em E. rewrite (enhanced_res _ _ _ _ _ Em) in E.
  destruct (decide_candidate _ _ _ E) as (si & Hi). exact (spec_scores_ranked _ _ _ _ _ _ _ Hi).
Qed.

Theorem cap_excluded s last now cfg exps i c :
  c_mode cfg = Enhanced -> fst (select s last now cfg exps) = Some i ->
  nth_error (gate_of s now cfg) i = Some c -> au_of s now cfg = true ->
  in_flight_cap_exceeded c = false.
Proof.
  intros Em E En Hau. destruct (chosen_is_candidate s last now cfg exps i Em E) as (c' & En' & Hc).
  rewrite En in En'. inversion En'; subst c'. unfold spec_candidate in Hc. rewrite Hau in Hc.
  apply andb_true_iff in Hc. destruct Hc as (_ & Hc). rewrite spec_over_cap_eq in Hc.
  now destruct (in_flight_cap_exceeded c).
Qed.

Theorem argmax s last now cfg exps i si :
  c_mode cfg = Enhanced -> Forall wfl s -> forallb exp_okb exps = true ->
  fst (select s last now cfg exps) = Some i -> nths (table s now cfg exps) i = Some si ->
  is_max (table s now cfg exps) si = true \/
  (last = Some i /\ all_below (table s now cfg exps) si = true).
Proof.
  intros Em Hw He E Hi. rewrite (enhanced_res _ _ _ _ _ Em) in E.
  apply (decide_argmax _ last i si); auto.
  intros x Hx. unfold table in Hx. rewrite <- score_list_spec in Hx.
  eapply score_list_not_nan; [apply gate_wf; exact Hw | exact He | exact Hx].
Qed.
