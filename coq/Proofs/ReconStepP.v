(** ReconStepP.v — what one op does to each link, as an indexed relation between the link
    list before and after ([step_rel]), and the few kinds of transition that relation
    allows ([LStep_cases]); the proofs of the C08 clauses work link by link, kind by kind,
    on top of the two. *)
From Coq Require Import ZifyBool.
From Srtla Require Import Base Constants Reconnect ReconShell ReconStep ConnP.
Local Open Scope Z_scope.

Lemma Forall2i_zip_with {A B C} (f : A -> B -> C) da db lb i la :
  Forall2i (fun _ x y => exists b, y = f x b) i la (zip_with f da db la lb).
Proof. revert i lb. induction la; intros; simpl; constructor; eauto. Qed.

Definition on_i (j i : nat) (f : link -> link) (l : link) : link := if Nat.eqb i j then f l else l.

(* [ReconShell.upd] has the body of [Conn.upd]: ConnP's lemmas about [upd] apply to it by conversion *)
Lemma upd_on_i f ls j : Forall2i (fun k l l' => l' = on_i j k f l) 0 ls (upd j f ls).
Proof.
  eapply Forall2i_impl; [|exact (upd_rel f ls j 0)]. unfold on_i. cbn [Nat.add]. intros k a b [[-> ->]|[N ->]].
  - rewrite Nat.eqb_refl. reflexivity.
  - rewrite (proj2 (Nat.eqb_neq _ _) N). reflexivity.
Qed.

(** the link half of [tick_link] does not depend on the manager *)
Definition tick_link_state (l : link) (now : Z) (classic : bool) (dg w' : Z) : link :=
  if is_timed_out l now then
    if should_attempt (l_rc l) now then
      let l1 := set_rc l (record_attempt (l_rc l) now) in
      if l_io l1 && l_bind l1 then reconnected l1 now else mark_for_recovery l1
    else l
  else
    let l1 := if negb classic && l_conn l then set_win l w' else l in
    set_ph l1 (update_phase (l_ph l1) (p_lossdeg (l_pen l1)) dg now).

Lemma tick_link_fst : forall i l g now classic dg w,
  fst (fst (tick_link i l g now classic dg w)) = tick_link_state l now classic dg w.
Proof.
  intros. unfold tick_link, tick_link_state.
  destruct (is_timed_out l now); [|reflexivity].
  destruct (should_attempt (l_rc l) now); [|reflexivity].
  destruct (g_pend g) as [idx|]; [destruct (Nat.eqb idx i)|]; reflexivity.
Qed.

Lemma tick_links_rel : forall now classic ls i g dgs ws,
  Forall2i (fun _ l l' => exists dg w, l' = tick_link_state l now classic dg w) i ls
      (fst (fst (tick_links i ls g now classic dgs ws))).
Proof.
  intros now classic ls. induction ls as [|a t IH]; intros i g dgs ws; simpl.
  - constructor.
  - pose proof (tick_link_fst i a g now classic (hd 0 dgs) (hd 0 ws)) as E.
    destruct (tick_link i a g now classic (hd 0 dgs) (hd 0 ws)) as [[l' g1] w] eqn:T. simpl in E.
    specialize (IH (S i) g1 (tl dgs) (tl ws)).
    destruct (tick_links (S i) t g1 now classic (tl dgs) (tl ws)) as [[t' g2] wt] eqn:TT. simpl in *.
    constructor; [eauto|exact IH].
Qed.

Definition LStep (cfg : Z) (probing : bool) (o : op) (i : nat) (l l' : link) : Prop :=
  match o with
  | OTick now refresh dgs ws =>
    exists (regrace : bool) classic dg w,
      (regrace = true -> probing = true) /\
      let l0 := if refresh then set_to l cfg else l in
      let l1 := if regrace then set_grace l0 (now + STARTUP_GRACE_MS) else l0 in
      l' = tick_link_state l1 now classic dg w
  | OReg3 j now => l' = on_i j i (fun x => reg3_link x now) l
  | ORegErr j now => l' = on_i j i regerr_link l
  | OKeepalive j now ok =>
    l' = on_i j i (fun x => let l1 := set_lr x (Some now) in
                            if ok then set_ph l1 (record_rtt_probe (l_ph l1)) else l1) l
  | OInbound j now cc =>
    let l1 := on_i j i (fun x => set_lr x (Some now)) l in
    l' = l1 \/ exists c : Z * Z, l' = (if l_conn l1 || (0 <? l_inf l1) then set_inf (set_win l1 (fst c)) (snd c) else l1)
  | OData now sel flushed inf' gs =>
    exists l1, (l1 = l \/ exists g, l1 = set_gated (set_to l cfg) g) /\ (l' = l1 \/ l' = forward l1 flushed inf')
  | OFlush now infs => exists f, l' = if l_io l then set_inf l f else l
  | OSetBind j b => l' = on_i j i (fun x => set_env x (l_io x) b (l_sock x)) l
  | OShut j => l' = on_i j i (fun x => set_env x (l_io x) (l_bind x) false) l
  | ODropIo j => l' = on_i j i (fun x => set_env x false (l_bind x) (l_sock x)) l
  | OSetPen j p => l' = on_i j i (fun x => set_pen x p) l
  | OStartProbe now => l' = l \/ l' = set_grace l (now + STARTUP_GRACE_MS)
  | OSetTimeout _ | OSetMode _ | OReg2 _ _ _ | ONgp _ _ | ORepair _ _ => l' = l
  end.

Lemma is_probing_clear : forall g now, is_probing (clear_pending_if_timed_out g now) = is_probing g.
Proof.
  intros. unfold clear_pending_if_timed_out. destruct (g_pend g); [|reflexivity].
  destruct (negb (g_pto g =? 0) && (g_pto g <=? now)); reflexivity.
Qed.

(** The links go through three stages: the timeout refresh, the end of probing, which may re-arm
    the grace of the link it selects, and the per-link loop. *)
Lemma step_tick_spec : forall s now refresh dgs ws, exists ls2 g af wire err,
  step_tick s now refresh dgs ws = (ST ls2 g (lastsel s) af (cfg_to s) (cfg_classic s), OUT wire err) /\
  Forall2i (LStep (cfg_to s) (is_probing (rg s)) (OTick now refresh dgs ws)) 0 (links s) ls2 /\
  (err = true -> count_alive ls2 now = 0).
Proof.
  intros s now refresh dgs ws. unfold step_tick.
  set (ls0 := if refresh then map (fun l => set_to l (cfg_to s)) (links s) else links s).
  set (g0 := clear_pending_if_timed_out (rg s) now).
  assert (S0 : Forall2i (fun _ l l0 => l0 = if refresh then set_to l (cfg_to s) else l) 0 (links s) ls0).
  { unfold ls0. destruct refresh; [apply Forall2i_map|apply Forall2i_refl; reflexivity]. }
  destruct (if is_probing g0 then _ else _) as [g1 ls1] eqn:E1.
  assert (S1 : Forall2i (fun _ l l1 => l1 = l \/ is_probing (rg s) = true /\ l1 = set_grace l (now + STARTUP_GRACE_MS))
                   0 ls0 ls1).
  { revert E1. destruct (is_probing g0) eqn:PB;
      [destruct (check_probing_complete g0 now) as [g' [|]]; [destruct (g_target g') as [idx|]|]|];
      intros [= <- <-]; try (apply Forall2i_refl; auto).
    unfold g0 in PB. rewrite is_probing_clear in PB.
    eapply Forall2i_impl; [|apply upd_on_i]. intros k a b ->. unfold on_i.
    destruct (Nat.eqb k idx); auto. }
  pose proof (tick_links_rel now (cfg_classic s) ls1 0%nat g1 dgs ws) as T.
  destruct (tick_links 0 ls1 g1 now (cfg_classic s) dgs ws) as [[ls2 g2] wire]. simpl in T.
  destruct (reg_driver _ ls2 now wire) as [g4 wire'].
  assert (F : Forall2i (LStep (cfg_to s) (is_probing (rg s)) (OTick now refresh dgs ws)) 0 (links s) ls2).
  { eapply Forall2i_impl; [|exact (Forall2i_comp _ _ _ _ _ _ (Forall2i_comp _ _ _ _ _ _ S0 S1) T)].
    clear. intros k a c [b [[b0 [-> R]] [dg [w ->]]]].
    destruct R as [->|[Hp ->]]; [exists false|exists true]; exists (cfg_classic s), dg, w;
      (split; [|reflexivity]); [discriminate|intros _; exact Hp]. }
  destruct (count_alive ls2 now =? 0) eqn:A; eexists ls2, _, _, _, _; (split; [reflexivity|]);
    (split; [exact F|]); [lia|discriminate].
Qed.

Theorem step_rel : forall s o,
  Forall2i (LStep (cfg_to s) (is_probing (rg s)) o) 0 (links s) (links (fst (step s o))).
Proof.
  intros s o.
  destruct o; cbn [step].
  - apply Forall2i_refl. reflexivity.
  - apply Forall2i_refl. reflexivity.
  - (* OStartProbe *)
    destruct ((g_prob (rg s) =? 0) && (g_active (rg s) =? 0)); cbn [fst links with_rg with_links].
    + eapply Forall2i_impl; [|apply Forall2i_map]. intros k a b ->. right. reflexivity.
    + apply Forall2i_refl. left. reflexivity.
  - destruct (step_tick_spec s now refresh dgs ws) as (ls2 & g & af & wire & err & -> & F & _). exact F.
  - (* OReg3: beyond the list [upd] changes nothing *)
    destruct (i <? length (links s))%nat eqn:L; cbn [fst links with_rg on_link with_links];
      [|rewrite <- (upd_ge (fun l => reg3_link l now) (links s) i L) at 2]; apply upd_on_i.
  - destruct (i <? length (links s))%nat; apply Forall2i_refl; reflexivity.
  - destruct (nth_error (links s) i); [destruct (ngp_immediate _ i now)|]; apply Forall2i_refl; reflexivity.
  - destruct (i <? length (links s))%nat eqn:L; cbn [fst links with_rg on_link with_links];
      [|rewrite <- (upd_ge regerr_link (links s) i L) at 2]; apply upd_on_i.
  - apply upd_on_i.
  - (* OInbound *) cbn [fst links with_links].
    pose proof (upd_on_i (fun l => set_lr l (Some now)) (links s) i) as U.
    destruct (i <? length (links s))%nat.
    + eapply Forall2i_impl; [|exact (Forall2i_comp _ _ _ _ _ _ U (Forall2i_zip_with _ (link0 0) (0, 0) cc _ _))].
      intros k a c [b [-> [x ->]]]. right. exists x. reflexivity.
    + eapply Forall2i_impl; [|exact U]. intros k a b ->. left. reflexivity.
  - (* OData: the stall-gate refresh of every link, then the flush on the selected one *)
    set (X := if g_hasconn (rg s) then _ else _).
    assert (F1 : Forall2i (fun _ l l1 => l1 = l \/ exists g, l1 = set_gated (set_to l (cfg_to s)) g) 0 (links s) (fst X)).
    { unfold X. destruct (g_hasconn (rg s)); cbn [fst].
      - eapply Forall2i_impl; [|apply Forall2i_zip_with]. intros k a b [g ->]. eauto.
      - apply Forall2i_refl. auto. }
    destruct X as [ls1 pick]. cbn [fst] in F1.
    assert (B : Forall2i (LStep (cfg_to s) (is_probing (rg s)) (OData now sel flushed inf' gs)) 0 (links s) ls1).
    { eapply Forall2i_impl; [|exact F1]. intros k a b H. exists b. auto. }
    destruct pick as [i|]; [|exact B]. destruct (i <? length (links s))%nat; [|exact B].
    eapply Forall2i_impl; [|exact (Forall2i_comp _ _ _ _ _ _ F1 (upd_on_i (fun l => forward l flushed inf') ls1 i))].
    intros k a c [b [H ->]]. exists b. split; [exact H|].
    unfold on_i. destruct (Nat.eqb k i); auto.
  - (* OFlush *) cbn [fst links with_links].
    eapply Forall2i_impl; [|apply Forall2i_zip_with]. intros k a b [f ->]. exists f. reflexivity.
  - apply upd_on_i.
  - apply upd_on_i.
  - apply upd_on_i.
  - apply upd_on_i.
  - apply Forall2i_refl. reflexivity.
Qed.

Lemma step_link_at : forall s o i l l',
  nth_error (links s) i = Some l -> nth_error (links (fst (step s o))) i = Some l' ->
  LStep (cfg_to s) (is_probing (rg s)) o i l l'.
Proof.
  intros s o i l l' H1 H2. destruct (Forall2i_nth _ _ _ _ (step_rel s o) _ _ H1) as (b & E & ST).
  rewrite H2 in E. injection E as <-. exact ST.
Qed.

(** the fields of a link that the liveness clauses read, the timeout apart.  Not among them:
    [l_io], [l_bind], phase, window, in-flight, and [r_grace], although [should_attempt] and
    [is_timed_out] read it: OStartProbe and a pass while probing re-arm it and keep [live]. *)
Definition live (l : link) :=
  (l_conn l, l_lr l, r_last (l_rc l), r_fail (l_rc l), r_est (l_rc l), l_gen l, l_sock l).

Lemma live_conn {l l'} : live l' = live l -> l_conn l' = l_conn l.
Proof. intros [= H _ _ _ _ _ _]. exact H. Qed.
Lemma live_lr {l l'} : live l' = live l -> l_lr l' = l_lr l.
Proof. intros [= _ H _ _ _ _ _]. exact H. Qed.
Lemma live_last {l l'} : live l' = live l -> r_last (l_rc l') = r_last (l_rc l).
Proof. intros [= _ _ H _ _ _ _]. exact H. Qed.
Lemma live_fail {l l'} : live l' = live l -> r_fail (l_rc l') = r_fail (l_rc l).
Proof. intros [= _ _ _ H _ _ _]. exact H. Qed.
Lemma live_est {l l'} : live l' = live l -> r_est (l_rc l') = r_est (l_rc l).
Proof. intros [= _ _ _ _ H _ _]. exact H. Qed.
Lemma live_gen {l l'} : live l' = live l -> l_gen l' = l_gen l.
Proof. intros [= _ _ _ _ _ H _]. exact H. Qed.
Lemma live_sock {l l'} : live l' = live l -> l_sock l' = l_sock l.
Proof. intros [= _ _ _ _ _ _ H]. exact H. Qed.

Lemma tick_link_state_cases : forall l now classic dg w,
  let l' := tick_link_state l now classic dg w in
  (is_timed_out l now = true /\ should_attempt (l_rc l) now = true /\
   (l' = reconnected (set_rc l (record_attempt (l_rc l) now)) now \/
    l' = mark_for_recovery (set_rc l (record_attempt (l_rc l) now)))) \/
  (is_timed_out l now = true /\ should_attempt (l_rc l) now = false /\ l' = l) \/
  (is_timed_out l now = false /\ live l' = live l /\ l_to l' = l_to l /\ l_inf l' = l_inf l).
Proof.
  intros. unfold l', tick_link_state.
  destruct (is_timed_out l now).
  - destruct (should_attempt (l_rc l) now).
    + left. repeat split. destruct (_ && _); [left|right]; reflexivity.
    + right. left. auto.
  - right. right. destruct (negb classic && l_conn l); repeat split; reflexivity.
Qed.

Lemma LStep_tick : forall cfg pb now refresh dgs ws i l l', LStep cfg pb (OTick now refresh dgs ws) i l l' ->
  exists l1 classic dg w, l' = tick_link_state l1 now classic dg w /\ live l1 = live l /\
    l_to l1 = (if refresh then cfg else l_to l) /\ l_inf l1 = l_inf l /\
    (pb = false -> r_grace (l_rc l1) = r_grace (l_rc l)).
Proof.
  intros cfg pb now refresh dgs ws i l l' (rg & classic & dg & w & Hrg & ->).
  eexists _, classic, dg, w. split; [reflexivity|].
  destruct refresh, rg; repeat split; try reflexivity; intros ->; discriminate (Hrg eq_refl).
Qed.

(** the clock reading of an op that is an inbound datagram on link [i] *)
Definition op_hears (o : op) (i : nat) : option Z :=
  match o with
  | OKeepalive j now _ | OInbound j now _ | OReg3 j now => if Nat.eqb i j then Some now else None
  | _ => None
  end.

(** Every link transition is of one of six kinds: it leaves the liveness fields alone, but
    for the stamp [lr] when the op is an inbound datagram on this link; it is the REG3 /
    REG_ERR / socket fault aimed at this link; it is a housekeeping pass that found the link
    ([l1]: after the timeout refresh and the re-armed grace) timed out with an attempt due;
    or it is a flush on a socket that rejects sends.  The probing flag of [LStep] is dropped:
    only [LStep_tick] keeps what it says about [r_grace]. *)
Inductive LKind (cfg : Z) (o : op) (i : nat) (l l' : link) : Prop :=
| K_quiet lr : live l' = live (set_lr l lr) -> l_to l' = l_to l \/ l_to l' = cfg ->
    lr = match op_hears o i with Some now => Some now | None => l_lr l end -> LKind cfg o i l l'
| K_reg3 now : o = OReg3 i now -> l' = reg3_link l now -> LKind cfg o i l l'
| K_regerr now : o = ORegErr i now -> l' = regerr_link l -> LKind cfg o i l l'
| K_shut : o = OShut i -> l' = set_env l (l_io l) (l_bind l) false -> LKind cfg o i l l'
| K_retry now refresh dgs ws l1 : o = OTick now refresh dgs ws ->
    live l1 = live l -> l_to l1 = (if refresh then cfg else l_to l) ->
    is_timed_out l1 now = true -> should_attempt (l_rc l1) now = true ->
    l' = reconnected (set_rc l1 (record_attempt (l_rc l1) now)) now \/
    l' = mark_for_recovery (set_rc l1 (record_attempt (l_rc l1) now)) -> LKind cfg o i l l'
| K_sendfail now sel flushed inf' gs l1 : o = OData now sel flushed inf' gs ->
    live l1 = live l -> l_to l1 = l_to l \/ l_to l1 = cfg -> l_sock l = false ->
    l' = mark_for_recovery (set_inf l1 inf') -> LKind cfg o i l l'.

(** [kquiet]: the first kind, for a transition given as an explicit term *)
Ltac kquiet := eapply K_quiet; [reflexivity|auto|reflexivity].

Lemma LStep_cases : forall cfg pb o i l l', LStep cfg pb o i l l' -> LKind cfg o i l l'.
Proof.
  intros cfg pb o i l l' H. destruct o; cbn [LStep] in H; unfold on_i in H.
  - subst. kquiet.
  - subst. kquiet.
  - destruct H as [->| ->]; kquiet.
  - destruct (LStep_tick cfg pb now refresh dgs ws i l l' H) as (l1 & classic & dg & w & -> & P1 & P2 & _).
    destruct (tick_link_state_cases l1 now classic dg w) as [(TO & SA & X)|[(_ & _ & X)|(_ & X1 & X2 & _)]].
    + exact (K_retry _ _ _ _ _ now refresh dgs ws l1 eq_refl P1 P2 TO SA X).
    + rewrite X. eapply K_quiet; [exact P1|destruct refresh; auto|reflexivity].
    + eapply K_quiet; [exact (eq_trans X1 P1)|destruct refresh; rewrite X2, P2; auto|reflexivity].
  - destruct (Nat.eqb_spec i i0) as [<-|N]; subst l'; [exact (K_reg3 _ _ _ _ _ now eq_refl eq_refl)|].
    eapply K_quiet; [reflexivity|auto|]. cbn. apply Nat.eqb_neq in N. rewrite N. reflexivity.
  - subst. kquiet.
  - subst. kquiet.
  - destruct (Nat.eqb_spec i i0) as [<-|N]; subst l'; [exact (K_regerr _ _ _ _ _ now eq_refl eq_refl)|kquiet].
  - subst l'. destruct ok; apply (K_quiet _ _ _ _ _ (if Nat.eqb i i0 then Some now else l_lr l)); cbn;
      destruct (Nat.eqb i i0); auto.
  - apply (K_quiet _ _ _ _ _ (if Nat.eqb i i0 then Some now else l_lr l)); cbn;
      destruct (Nat.eqb i i0); auto;
      (destruct H as [->|[c ->]]; [auto|]; destruct (_ || _); auto).
  - destruct H as (l1 & Hl1 & Hl').
    assert (P : live l1 = live l /\ (l_to l1 = l_to l \/ l_to l1 = cfg))
      by (destruct Hl1 as [->|[g ->]]; split; auto).
    destruct P as [P1 P2].
    assert (Q : LKind cfg (OData now sel flushed inf' gs) i l l1) by (eapply K_quiet; [exact P1|exact P2|reflexivity]).
    destruct Hl' as [->| ->]; [exact Q|]. unfold forward.
    destruct (flushed && l_io l1); [|exact Q].
    destruct (l_sock (set_inf l1 inf')) eqn:S.
    + eapply K_quiet; [exact P1|exact P2|reflexivity].
    + apply (K_sendfail _ _ _ _ _ now sel flushed inf' gs l1); auto.
      rewrite <- (live_sock P1). exact S.
  - destruct H as [f ->]. destruct (l_io l); kquiet.
  - destruct (Nat.eqb i i0); subst l'; kquiet.
  - destruct (Nat.eqb_spec i i0) as [<-|N]; subst l'; [exact (K_shut _ _ _ _ _ eq_refl eq_refl)|kquiet].
  - destruct (Nat.eqb i i0); subst l'; kquiet.
  - destruct (Nat.eqb i i0); subst l'; kquiet.
  - subst. kquiet.
Qed.

Lemma op_hears_time : forall o i now, op_hears o i = Some now -> op_time o = Some now.
Proof. intros o i now H. destruct o; try discriminate; cbn in *; destruct (Nat.eqb i i0); congruence. Qed.
