(** C17P.v — the lemmas behind Props/C17.v: what one tick does to a link's memory, runs of
    share-weak verdicts and the probation window over traces, and the simulation showing that
    every trace of the model satisfies the monitor [ok_C17] of Run_C17.v. *)
From Srtla Require Import Base Classifier ClassifierP Run_C17 BaseP.
Local Open Scope Z_scope.

Lemma bypassed_iff ls :
  bypassed ls = true <-> ((total_bps ls <? 0x1.86ap+16)%float = true \/ conn_count ls = 0).
Proof.
  unfold bypassed. rewrite min_total_eq, orb_true_iff, Z.eqb_eq. tauto.
Qed.

Lemma unclassified_forgotten st ls l :
  NoDup (map l_id ls) -> In l ls -> classified ls l = false ->
  mem (fst (tick st ls)) (l_id l) = lst0.
Proof.
  intros Hnd Hin Hc. apply mem_tick_cases; [reflexivity|]. intros l' Hin' Hid Hc'.
  rewrite (NoDup_map_inj l_id ls l' l Hnd Hin' Hin Hid) in Hc'. congruence.
Qed.

(** Clause 2: a delay verdict needs the signal on this tick and on the previous one. *)
Lemma delay_verdict_needs_streak st ls l :
  delay_verdict (verdict st ls l) = true ->
  classified ls l = true /\ signal ls l = true /\ 1 <= s_ds (mem st (l_id l)).
Proof.
  intros Hd. assert (Hc : classified ls l = true).
  { apply (weak_is_classified st). apply andb_true_iff in Hd. apply Hd. }
  split; [exact Hc|]. rewrite (verdict_classified st ls l Hc) in Hd. rewrite signal_eq.
  exact (step_out_delay _ _ _ _ _ Hd).
Qed.

Lemma streak_needs_signal st ls id :
  1 <= s_ds (mem (fst (tick st ls)) id) ->
  exists l, In l ls /\ l_id l = id /\ classified ls l = true /\ signal ls l = true.
Proof.
  pattern (mem (fst (tick st ls)) id). apply mem_tick_cases; [cbn; lia|].
  intros l Hin Hid Hc Hst. exists l. repeat split; try assumption.
  rewrite (entry_classified st ls l Hc) in Hst. unfold step_entry, delay_streak in Hst.
  cbn [s_ds] in Hst. rewrite signal_eq.
  destruct (delay_sig (tier_of ls) l); [reflexivity|lia].
Qed.

(** Clause 3: the bounds the memory keeps. *)
Definition entry_ok (e : lst) : Prop :=
  0 <= s_ds e <= u32_max /\ 0 <= s_ws e < 15 /\ 0 <= s_pr e <= 3 /\ (0 < s_pr e -> s_ws e = 0).
Definition st_ok (st : fstate) : Prop := forall id, entry_ok (mem st id).

Lemma entry_ok_default : entry_ok lst0.
Proof. unfold entry_ok, lst0, u32_max, two32. cbn. lia. Qed.

Lemma step_entry_ok n total sel e l : entry_ok e -> entry_ok (step_entry n total sel e l).
Proof.
  intros (_ & Hws & Hpr & _). split; [apply delay_streak_range|]. apply share_counts_range; assumption.
Qed.

Lemma tick_ok st ls : st_ok st -> st_ok (fst (tick st ls)).
Proof.
  intros Hok id. apply mem_tick_cases; [exact entry_ok_default|]. intros l _ _ Hc.
  rewrite (entry_classified st ls l Hc). apply step_entry_ok, Hok.
Qed.

Lemma state_after_ok ops : forall st, st_ok st -> st_ok (state_after st ops).
Proof.
  induction ops as [|ls ops IH]; intros st Hok; cbn [state_after]; [exact Hok|].
  apply IH. apply tick_ok. exact Hok.
Qed.

Lemma share_streak_step st ls l :
  entry_ok (mem st (l_id l)) -> share_verdict (verdict st ls l) = true ->
  classified ls l = true /\ s_pr (mem st (l_id l)) = 0 /\
  ((s_ws (mem st (l_id l)) + 1 < 15 /\ s_ws (entry_after st ls l) = s_ws (mem st (l_id l)) + 1 /\
    s_pr (entry_after st ls l) = 0) \/
   (s_ws (mem st (l_id l)) + 1 = 15 /\ s_ws (entry_after st ls l) = 0 /\
    s_pr (entry_after st ls l) = 3)).
Proof.
  intros (_ & Hws & Hpr & _) Hsv.
  assert (Hw : o_weak (verdict st ls l) = true) by (apply andb_true_iff in Hsv; apply Hsv).
  assert (Hc := weak_is_classified _ _ _ Hw). split; [exact Hc|].
  assert (Hp : s_pr (mem st (l_id l)) = 0).
  { destruct (Z_lt_le_dec 0 (s_pr (mem st (l_id l)))) as [Hpos|]; [|lia].
    rewrite (probation_forces_not_weak st ls l Hpos) in Hw. discriminate. }
  split; [exact Hp|].
  pose proof (entry_counts st ls l Hc) as H.
  rewrite Hsv, (share_counts_eq _ _ _ Hws Hpr), Hp in H. change (0 <? 0) with false in H.
  destruct (Z.eqb_spec (s_ws (mem st (l_id l)) + 1) 15); injection H as -> ->; [right|left]; lia.
Qed.

Lemma share_streak_reset st ls l :
  classified ls l = true -> s_pr (mem st (l_id l)) = 0 -> share_verdict (verdict st ls l) = false ->
  s_ws (entry_after st ls l) = 0 /\ s_pr (entry_after st ls l) = 0.
Proof.
  intros Hc Hp Hsv. pose proof (entry_counts st ls l Hc) as H. rewrite Hsv, Hp in H.
  injection H as -> ->. split; reflexivity.
Qed.

Fixpoint all_share_weak (id : Z) (st : fstate) (lss : list (list lin)) : Prop :=
  match lss with
  | [] => True
  | ls :: r => (exists l, In l ls /\ l_id l = id /\ share_verdict (verdict st ls l) = true) /\
               all_share_weak id (fst (tick st ls)) r
  end.

(** The window lasts only as long as the link stays classified: a disconnect / floor crossing
    forgets the link. *)
Fixpoint window_not_weak (id : Z) (st : fstate) (lss : list (list lin)) : Prop :=
  match lss with
  | [] => True
  | ls :: r => (forall l, In l ls -> l_id l = id -> o_weak (verdict st ls l) = false) /\
               ((exists l, In l ls /\ l_id l = id /\ classified ls l = true) ->
                window_not_weak id (fst (tick st ls)) r)
  end.

Lemma share_weak_run id lss : forall st,
  st_ok st -> wf_ops lss -> all_share_weak id st lss ->
  Z.of_nat (length lss) + s_ws (mem st id) <= 15 /\
  (lss <> [] -> s_pr (mem st id) = 0 /\
     s_pr (mem (state_after st lss) id) =
     if Z.of_nat (length lss) + s_ws (mem st id) =? 15 then 3 else 0).
Proof.
  induction lss as [|ls r IH]; intros st Hok Hwf Hall.
  - destruct (Hok id) as (_ & Hw & _). split; [cbn [length]; lia|]. intros H. congruence.
  - destruct Hall as ((l & Hin & <- & Hsv) & Hrest). inversion Hwf as [|? ? Hnd Hwf']; subst.
    destruct (share_streak_step st ls l (Hok (l_id l)) Hsv) as (Hc & Hp0 & Hstep).
    rewrite <- (mem_after_tick st ls l Hnd Hin Hc) in Hstep.
    destruct (IH (fst (tick st ls)) (tick_ok st ls Hok) Hwf' Hrest) as (Hb & Hnext).
    cbn [state_after]. change (length (ls :: r)) with (S (length r)). rewrite Nat2Z.inj_succ.
    destruct r as [|ls2 r2].
    + cbn [length state_after] in *. split; [lia|]. intros _. split; [exact Hp0|].
      destruct (Z.eqb_spec (Z.succ (Z.of_nat 0) + s_ws (mem st (l_id l))) 15); lia.
    + (* the run goes on, so this tick did not arm the window: the streak grew by one *)
      destruct (Hnext ltac:(discriminate)) as (Hp1 & Hafter).
      destruct Hstep as [(_ & Hws & _)|(_ & _ & Hpr)]; [|lia].
      rewrite Hws in Hb, Hafter.
      replace (Z.succ (Z.of_nat (length (ls2 :: r2))) + s_ws (mem st (l_id l)))
        with (Z.of_nat (length (ls2 :: r2)) + (s_ws (mem st (l_id l)) + 1)) by lia.
      split; [exact Hb|]. intros _. split; [exact Hp0|exact Hafter].
Qed.

(** The bound of [share_weak_run] is attained. *)
Lemma low_share_run id ls l :
  NoDup (map l_id ls) -> In l ls -> l_id l = id -> classified ls l = true -> signal ls l = false ->
  (forall e, share_of ls l < threshold (conn_count ls) e) ->
  forall k st, entry_ok (mem st id) -> (k <> 0%nat -> s_pr (mem st id) = 0) ->
    Z.of_nat k + s_ws (mem st id) <= 15 -> all_share_weak id st (repeat ls k).
Proof.
  intros Hnd Hin <- Hc Hs Hlow. induction k as [|k IH]; intros st Hok Hp Hk; [exact I|].
  assert (Hsv : share_verdict (verdict st ls l) = true).
  { rewrite (verdict_classified st ls l Hc).
    apply step_out_share_weak; [rewrite Hp by discriminate; lia|rewrite <- signal_eq; exact Hs|apply Hlow]. }
  split; [exists l; auto|].
  destruct (share_streak_step st ls l Hok Hsv) as (_ & _ & Hstep).
  rewrite <- (mem_after_tick st ls l Hnd Hin Hc) in Hstep. apply IH.
  - rewrite (mem_after_tick st ls l Hnd Hin Hc), (entry_classified st ls l Hc).
    apply step_entry_ok, Hok.
  - intros Hk0. lia.
  - lia.
Qed.

Lemma share_weak_run_15 id lss st :
  st_ok st -> wf_ops lss -> all_share_weak id st lss ->
  (length lss <= 15)%nat /\ (length lss = 15%nat -> s_pr (mem (state_after st lss) id) = 3).
Proof.
  intros Hok Hwf Hall. destruct (share_weak_run id lss st Hok Hwf Hall) as (Hb & Hcase).
  destruct (Hok id) as (_ & Hw & _). split; [lia|]. intros Hlen.
  destruct Hcase as (_ & ->); [intros ->; discriminate|].
  destruct (Z.eqb_spec (Z.of_nat (length lss) + s_ws (mem st id)) 15); lia.
Qed.

Lemma probation_window id lss : forall st,
  wf_ops lss -> Z.of_nat (length lss) <= s_pr (mem st id) -> window_not_weak id st lss.
Proof.
  induction lss as [|ls r IH]; intros st Hwf Hp; cbn [window_not_weak]; [exact I|].
  cbn [length] in Hp. rewrite Nat2Z.inj_succ in Hp.
  inversion Hwf as [|? ? Hnd Hwf']; subst. split.
  - intros l _ Hid. apply probation_forces_not_weak. rewrite Hid. lia.
  - intros (l & Hin & Hid & Hc). apply IH; [exact Hwf'|].
    rewrite <- Hid. rewrite (mem_after_tick st ls l Hnd Hin Hc).
    destruct (probation_counts_down st ls l Hc ltac:(rewrite Hid; lia)) as (H1 & _).
    rewrite H1, Hid. lia.
Qed.

(** The simulation relation: what the monitor's entry [m] holds of the model's entry [e]. *)
Definition mem_rel (e : lst) (m : mst) : Prop :=
  entry_ok e /\ m_pw m = s_pw e /\ (m_plow m = true -> m_pw m = true) /\
  m_psig m = (1 <=? s_ds e) /\ m_sw m = s_ws e /\ m_owed m = s_pr e.
Definition mem_rel_all (st : fstate) (ms : mstate) : Prop :=
  forall id, mem_rel (mem st id) (lookup m0 ms id).

Lemma mem_rel_default : mem_rel lst0 m0.
Proof. split; [exact entry_ok_default|]. repeat split. discriminate. Qed.

Lemma find_out_map (f : lin -> lout) ls l :
  (forall x, o_id (f x) = l_id x) -> NoDup (map l_id ls) -> In l ls ->
  find_out (l_id l) (map f ls) = Some (f l).
Proof.
  intros Hid. induction ls as [|x ls IH]; intros Hnd Hin; [contradiction|].
  cbn [map] in Hnd. inversion Hnd as [|? ? Hx Hnd']; subst.
  cbn [map find_out]. rewrite Hid. destruct Hin as [->|Hin].
  - rewrite Z.eqb_refl. reflexivity.
  - destruct (l_id x =? l_id l) eqn:Hk; [|apply IH; assumption].
    exfalso. apply Hx. apply Z.eqb_eq in Hk. rewrite Hk. apply in_map. exact Hin.
Qed.

Lemma first_nonzero_zero {A} (f : A -> N) l :
  (forall x, In x l -> f x = 0%N) -> first_nonzero (map f l) = 0%N.
Proof.
  induction l as [|x l IH]; intros H; cbn [map first_nonzero]; [reflexivity|].
  rewrite (H x (or_introl eq_refl)). apply IH. intros y Hy. apply H. right. exact Hy.
Qed.

Lemma implb'_intro a b : (a = true -> b = true) -> implb' a b = true.
Proof. destruct a; [intros H; exact (H eq_refl)|reflexivity]. Qed.

Lemma first_clause_ok c2 c3 c4 c5 :
  c2 = true -> c3 = true -> c4 = true -> c5 = true -> first_clause true c2 c3 c4 c5 = 0%N.
Proof. intros -> -> -> ->. reflexivity. Qed.

Lemma sim_link n total sel e l m ms outs :
  mem_rel e m ->
  l_conn l = true -> (total <? 0x1.86ap+16)%float = false -> (n =? 0) = false ->
  lookup m0 ms (l_id l) = m -> find_out (l_id l) outs = Some (step_out n total sel e l) ->
  exists m', mon_link n total sel ms outs l = (0%N, Some (l_id l, m')) /\
             mem_rel (step_entry n total sel e l) m'.
Proof.
  intros (Hok & Rpw & Rlow & Rsig & Rsw & Rowed) Hc Ht Hn Hm Hfo.
  unfold mon_link. rewrite Hfo, Hc, Ht, Hn, Hm. cbn [negb orb].
  rewrite Rpw in Rlow |- *. rewrite Rsig, Rsw, Rowed.
  (* the monitor's own update of streak and owed ticks: [share_counts] within [entry_ok] *)
  destruct (if 0 <? s_pr e then _ else _) as [sw' owed'] eqn:Hcnt.
  eexists. split.
  - (* clauses 2 to 5 of the monitor, in order *)
    apply f_equal2; [|reflexivity]. apply first_clause_ok; apply implb'_intro; intros H.
    + apply step_out_delay in H. destruct H as [Hs Hst]. unfold delay_sig in Hs. rewrite Hs.
      apply Z.leb_le. exact Hst.
    + apply Z.ltb_lt in H. rewrite (proj1 (step_out_probation n total sel e l H)). reflexivity.
    + apply andb_true_iff in H. destruct H as [H Hpw]. apply negb_true_iff in Hpw.
      apply step_out_low in H. unfold threshold in H. rewrite Hpw in H. apply Z.ltb_lt. exact H.
    + apply andb_true_iff in H. destruct H as [H Hp]. apply andb_true_iff in H. destruct H as [Hlow H].
      apply negb_true_iff in H. apply step_out_healthy in H. unfold threshold in H.
      rewrite (Rlow Hlow) in H. apply Z.leb_le. apply Z.eqb_eq in Hp. destruct H as [H|H]; [exact H|lia].
  - split; [apply step_entry_ok, Hok|]. destruct Hok as ((Hds & _) & Hws & Hpr & _).
    unfold step_entry. cbn [m_pw m_plow m_psig m_sw m_owed s_pw s_ds s_ws s_pr].
    rewrite (share_counts_eq _ _ _ Hws Hpr). unfold share_verdict. rewrite Hcnt.
    split; [reflexivity|]. split; [intros H; apply andb_true_iff in H; apply H|].
    split; [symmetry; apply delay_streak_pos, Hds|]. split; reflexivity.
Qed.

(** [sel] is what the tick reports as its tier: [tier_of] unless bypassed. *)
Lemma sim_link_tick st ms ls sel l :
  mem_rel_all st ms -> NoDup (map l_id ls) -> In l ls -> (bypassed ls = false -> sel = tier_of ls) ->
  exists m',
    mon_link (conn_count ls) (total_bps ls) sel ms (map (verdict st ls) ls) l =
    (0%N, if classified ls l then Some (l_id l, m') else None) /\
    (classified ls l = true -> mem_rel (entry_after st ls l) m').
Proof.
  intros Hr Hnd Hin Hsel.
  assert (Hfo := find_out_map (verdict st ls) ls l (verdict_id st ls) Hnd Hin).
  destruct (classified ls l) eqn:Hcl.
  - rewrite (verdict_classified st ls l Hcl) in Hfo. rewrite (entry_classified st ls l Hcl).
    apply classified_iff in Hcl. destruct Hcl as [Hb Hc]. rewrite (Hsel Hb).
    unfold bypassed in Hb. rewrite min_total_eq in Hb. apply orb_false_iff in Hb. destruct Hb as [Ht Hn].
    destruct (sim_link _ _ _ _ _ _ ms _ (Hr (l_id l)) Hc Ht Hn eq_refl Hfo) as (m' & Hm & Hrel).
    exists m'. split; [exact Hm|intros _; exact Hrel].
  - exists m0. split; [|discriminate].
    unfold mon_link. rewrite Hfo, (unclassified_not_weak st ls l Hcl).
    unfold classified, bypassed in Hcl. rewrite min_total_eq in Hcl.
    destruct (l_conn l), (total_bps ls <? 0x1.86ap+16)%float, (conn_count ls =? 0);
      try discriminate Hcl; reflexivity.
Qed.

Lemma sim_tick st ms ls :
  mem_rel_all st ms -> NoDup (map l_id ls) ->
  fst (mon_tick ms ls (snd (tick st ls))) = 0%N /\
  mem_rel_all (fst (tick st ls)) (snd (mon_tick ms ls (snd (tick st ls)))).
Proof.
  intros Hr Hnd. unfold mon_tick. cbn [fst snd]. rewrite tick_outs, !map_map.
  set (mon := mon_link _ _ _ _ _).
  assert (Hall := fun l Hin => sim_link_tick st ms ls _ l Hr Hnd Hin (tick_sel st ls)). fold mon in Hall.
  split.
  { apply first_nonzero_zero. intros l Hin. destruct (Hall l Hin) as (m' & -> & _). reflexivity. }
  (* both memories are written by the classified links, so a lookup finds the same link in both *)
  intros id. rewrite mem_tick.
  rewrite (map_ext_in _ (fun l => if classified ls l
                                  then Some (l_id l, match snd (mon l) with Some (_, m) => m | None => m0 end)
                                  else None)), lookup_keep.
  2: { intros l Hin. destruct (Hall l Hin) as (m' & -> & _). destruct (classified ls l); reflexivity. }
  destruct (find _ _) as [l|] eqn:F; [|exact mem_rel_default].
  apply find_filter_some in F. destruct F as (Hin & Hc & _).
  destruct (Hall l Hin) as (m' & -> & Hrel). rewrite Hc. exact (Hrel Hc).
Qed.

Lemma sim_run ops : forall st ms,
  mem_rel_all st ms -> wf_ops ops -> mon_from ms (run_from st ops) = 0%N.
Proof.
  induction ops as [|ls ops IH]; intros st ms Hr Hwf; cbn [run_from mon_from]; [reflexivity|].
  inversion Hwf as [|? ? Hnd Hwf']; subst.
  destruct (sim_tick st ms ls Hr Hnd) as (H0 & Hr').
  destruct (tick st ls) as [st' o] eqn:Htick. cbn [fst snd] in *.
  cbn [mon_from]. destruct (mon_tick ms ls o) as [c ms'] eqn:Hmt. cbn [fst snd] in *.
  subst c. cbn. apply IH; assumption.
Qed.

Lemma nodupb_NoDup l : nodupb l = true -> NoDup l.
Proof.
  induction l as [|x l IH]; intros H; [constructor|].
  cbn [nodupb] in H. apply andb_true_iff in H. destruct H as [Hx Hl].
  constructor; [|apply IH; exact Hl].
  intros Hin. apply negb_true_iff in Hx.
  assert (existsb (Z.eqb x) l = true) by (apply existsb_exists; exists x; split; [exact Hin|apply Z.eqb_refl]).
  congruence.
Qed.
