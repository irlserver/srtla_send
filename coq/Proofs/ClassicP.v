(** ClassicP.v — the link invariant of C10, the capacity score and the classic selector
    against the reference (Model/ClassicRef.v). *)
From Coq Require Import ZifyBool.
From Srtla Require Import Base BaseP Constants Conn Classic ClassicRef.

(** the literals the property text names, against the generated constants *)
Lemma consts :
  WINDOW_INCR - 1 = 29 /\ WINDOW_MULT = 1000 /\ WINDOW_DECR = 100 /\
  WINDOW_FLOOR = 1000 /\ WINDOW_CEIL = 60000 /\ WINDOW_DEFAULT = 20000.
Proof. repeat split; reflexivity. Qed.

(** windows the theorems range over: any non-negative i32 that leaves room for one
    increment (beyond it `*window + WINDOW_INCR - 1` overflows: a debug-build panic) *)
Definition WB : Z := i32_max - WINDOW_INCR.
Lemma WB_val : WB = 2147483617. Proof. reflexivity. Qed.

Definition inv_link (c : link) : Prop :=
  in_flight c = blen (log c) /\ NoDup (map fst (log c)) /\ 0 <= window c <= WB.
Definition inv_x (x : xlink) : Prop := inv_link (core x).

Definition usable_x (now tmo : Z) (x : xlink) : bool :=
  connected (core x) && negb (registering x) &&
  match last_recv (core x) with Some lr => negb (tmo <=? Z.max 0 (now - lr)) | None => true end.
Definition rl_of (now tmo : Z) (x : xlink) : rlink :=
  {| r_usable := usable_x now tmo x; r_window := window (core x);
     r_inflight := blen (log (core x)); r_queued := blen (queue x) |}.

Lemma score_ref now tmo x :
  inv_x x -> connected (core x) = true -> get_score x = ref_score (rl_of now tmo x).
Proof.
  intros (Hif & _ & Hw) Hc. unfold get_score, ref_score, rl_of. cbn [r_window r_inflight r_queued].
  rewrite Hc. cbn [negb]. rewrite Hif. rewrite WB_val in Hw.
  pose proof (blen_nonneg (log (core x))) as Ha. pose proof (blen_nonneg (queue x)) as Hb.
  set (a := blen (log (core x))) in *. set (b := blen (queue x)) in *. set (w := window (core x)) in *.
  unfold sat_add_i32, sat_i32, clamp, i32_min, i32_max, two31.
  destruct (Z_le_gt_dec (a + b + 1) 2147483647) as [Hs|Hs].
  - match goal with |- Z.quot w ?d = _ => assert (Hd : d = a + b + 1) by lia; rewrite Hd end.
    apply Z.quot_div_nonneg; lia.
  - match goal with |- Z.quot w ?d = _ => assert (Hd : d = 2147483647) by lia; rewrite Hd end.
    rewrite Z.quot_small by lia. symmetry. apply Z.div_small. lia.
Qed.

Lemma score_nonneg now tmo x : inv_x x -> 0 <= ref_score (rl_of now tmo x).
Proof.
  intros (_ & _ & Hw). unfold ref_score, rl_of. cbn [r_window r_inflight r_queued].
  pose proof (blen_nonneg (log (core x))). pose proof (blen_nonneg (queue x)).
  apply Z.div_pos; lia.
Qed.

(** the reference's "usable" in the terms of the Rust loop: not skipped, and connected
    (a link the loop does not skip but that is not connected scores -1 and never wins) *)
Lemma usable_skip now tmo x :
  usable_x now tmo x = negb (timed_out x now tmo || registering x) && connected (core x).
Proof.
  unfold usable_x, timed_out. destruct (connected (core x)); [|rewrite andb_false_r; reflexivity].
  cbn [negb andb]. rewrite andb_true_r.
  destruct (registering x); [rewrite orb_true_r; reflexivity|]. rewrite orb_false_r. cbn [negb andb].
  destruct (last_recv (core x)); reflexivity.
Qed.

(** loop invariant: the Rust pair (best_idx, best_score) is the reference's best so far, with the
    score -1 standing for "none yet"; a usable link scores at least 0 and so beats it *)
Definition best_rel (bi : option nat) (bs : Z) (best : option (nat * Z)) : Prop :=
  bi = option_map fst best /\ bs = match best with Some (_, v) => v | None => -1 end /\ -1 <= bs.

Lemma select_loop_ref now tmo : forall l i bi bs best,
  Forall inv_x l -> best_rel bi bs best ->
  select_loop l i now tmo bi bs =
  match ref_argmax (map (rl_of now tmo) l) i best with Some (k, _) => Some k | None => None end.
Proof.
  induction l as [|x l IH]; intros i bi bs best Hinv Hrel; cbn [select_loop map ref_argmax].
  - destruct Hrel as (-> & _). destruct best as [[k v]|]; reflexivity.
  - inversion Hinv as [|? ? Hx Hl]; subst.
    cbn [r_usable rl_of].
    rewrite usable_skip. destruct (timed_out x now tmo || registering x); cbn [negb andb]; [apply IH; assumption|].
    destruct (connected (core x)) eqn:Hc.
    + rewrite (score_ref now tmo x Hx Hc). fold (rl_of now tmo x).
      pose proof (score_nonneg now tmo x Hx) as Hnn. set (sc := ref_score (rl_of now tmo x)) in *.
      assert (Hnew : best_rel (Some i) sc (Some (i, sc))) by (split; [reflexivity|split; [reflexivity|lia]]).
      destruct Hrel as (Hi & Hs & Hge). destruct best as [[k v]|]; subst bs.
      * destruct (v <? sc); apply IH; try assumption. split; [exact Hi|split; [reflexivity|exact Hge]].
      * replace (-1 <? sc) with true by lia. apply IH; assumption.
    + (* not skipped, not connected: the Rust score -1 never wins *)
      unfold get_score. rewrite Hc. cbn [negb].
      replace (bs <? -1) with false by (destruct Hrel as (_ & _ & Hge); lia).
      apply IH; assumption.
Qed.

Theorem select_refines_ref l now tmo :
  Forall inv_x l -> select l now tmo = ref_select (map (rl_of now tmo) l).
Proof.
  intros H. unfold select, ref_select. apply select_loop_ref; [exact H|]. split; [reflexivity|split; [reflexivity|lia]].
Qed.

Lemma ref_argmax_lt : forall ls i best k v,
  (forall k0 v0, best = Some (k0, v0) -> (k0 < i)%nat) ->
  ref_argmax ls i best = Some (k, v) -> (k < i + length ls)%nat.
Proof.
  induction ls as [|l ls IH]; intros i best k v Hb H; cbn in *.
  - specialize (Hb _ _ H). lia.
  - apply IH in H; [lia|].
    intros k0 v0 E. destruct (r_usable l).
    + destruct best as [[kb vb]|].
      * destruct (vb <? ref_score l); inversion E; subst; [lia|]. specialize (Hb _ _ eq_refl). lia.
      * inversion E; subst. lia.
    + specialize (Hb _ _ E). lia.
Qed.
Lemma ref_select_lt ls k : ref_select ls = Some k -> (k < length ls)%nat.
Proof.
  unfold ref_select. destruct (ref_argmax ls 0 None) as [[k0 v]|] eqn:E; [|discriminate].
  intros H; inversion H; subst. apply ref_argmax_lt in E; [lia|]. discriminate.
Qed.
