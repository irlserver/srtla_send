(** C15P.v — the model's decoders satisfy the C15 monitor on every input. *)
From Srtla Require Import Base Constants BaseP Wire WireSpec WireP Run_C15.
From Coq Require Import ZifyBool.

Theorem model_dec_ok b : ok_dec b (model_dec b) = true.
Proof.
  unfold model_dec, is_srtla_keepalive, is_srt_ack.
  rewrite get_packet_type_spec, get_srt_sequence_number_spec, is_srt_data_retransmit_spec.
  destruct (extract_keepalive_timestamp_shape b) as [ts ->].
  destruct (total_extract_keepalive_conn_info b) as [inf ->].
  rewrite parse_srt_ack_spec, parse_srt_nak_spec, parse_srtla_ack_spec.
  destruct (total_is_srtla_reg1 b) as [r1 ->]. destruct (total_is_srtla_reg2 b) as [r2 ->].
  destruct (total_is_srtla_reg3 b) as [r3 ->].
  destruct (total_type_is b SRTLA_TYPE_KEEPALIVE) as [ka ->].
  destruct (total_type_is b SRT_TYPE_ACK) as [sa ->].
  cbn [bind]. unfold ok_dec. cbn [d_panic d_type d_seq d_retr d_kats d_info d_ack d_nak d_sack d_is negb andb].
  rewrite !ozeqb_refl, !zlist_eqb_refl, Bool.eqb_reflx. cbn [andb].
  pose proof (parse_srt_nak_bound b _ (parse_srt_nak_spec b)) as [Hb1 Hb2].
  replace (_ <=? _) with true by lia. cbn [andb].
  (* the timestamp clause: the decoder yields one exactly under the condition the clause asks for *)
  replace (match (if _ : bool then _ else _) with Some _ => _ | None => _ end) with true
    by (destruct (_ && _); reflexivity).
  rewrite andb_true_r.
  destruct (blen b <? 8) eqn:E8; [|reflexivity].
  rewrite Hb2 by lia. reflexivity.
Qed.
