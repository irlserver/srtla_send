(** C07P.v — what one event does to the registration model, said once ([Step]) under the
    invariant [SInv]; the C07 monitor accepts every trace whose steps satisfy [Step], hence the
    model's own; the statements of Props/C07.v are read off [Step].  [Step] holds what the monitor's
    clauses and those statements ask, not all that the model does: REG2 counts for the uplinks in
    range only, the connected flags up to [conn_drop].  Also here, for Props/C07.v: [wf_op],
    [reachable] and the history [f4_ops]. *)
From Coq Require Import ZifyBool.
From Srtla Require Import Run_C07 BaseP RegP.

Lemma reg1_dsts_eq : forall l, reg1_dsts l = reg1_of l.
Proof. reflexivity. Qed.
Lemma reg2_count_eq : forall l i, reg2_count l i = reg2_cnt l i.
Proof. reflexivity. Qed.

Lemma none_connected_iff : forall l, none_connected l = true <-> none_conn l.
Proof.
  induction l as [|b t IH]; cbn; split; intro H; auto; try (constructor; fail).
  - apply andb_true_iff in H as [H1 H2]. constructor; [destruct b; auto; discriminate|apply IH; auto].
  - inversion H; subst. cbn. apply IH; auto.
Qed.

Lemma conn_ok_drop : forall pre post i o, conn_drop pre post -> conn_ok i pre post o = true.
Proof.
  intros pre post i o H. revert i.
  induction H as [|a b l l' H H2 IH]; intro i; cbn; auto.
  rewrite IH, andb_true_r. destruct b; cbn; auto. rewrite H; auto.
Qed.

Lemma conn_ok_set_true : forall l k i, 0 <= k -> conn_ok i l (set_nth l k true) (Some (i + k)) = true.
Proof.
  induction l as [|c t IH]; intros k i Hk; cbn; auto.
  destruct (k =? 0) eqn:E.
  - assert (k = 0) by lia; subst k. replace (i + 0 =? i) with true by lia.
    rewrite orb_true_r. cbn. apply conn_ok_drop, conn_drop_refl.
  - replace (i + k) with ((i + 1) + (k - 1)) by lia. rewrite IH by lia.
    destruct c; cbn; auto.
Qed.

Definition all_true (l : list bool) : Prop := forallb (fun b => b) l = true.

Lemma first_bad_all_true : forall l i, all_true l -> first_bad (fun b : bool => b) l i = 0%N.
Proof.
  induction l as [|b t IH]; intros i H; cbn; auto.
  unfold all_true in H; cbn in H. apply andb_true_iff in H as [H1 H2]. rewrite H1. apply IH; exact H2.
Qed.

Lemma range_all_intro : forall k i f,
  (forall j, i <= j < i + Z.of_nat k -> f j = true) -> range_all k i f = true.
Proof.
  induction k as [|k IH]; intros i f H; cbn [range_all]; auto.
  rewrite H by lia. rewrite IH; auto. intros j Hj. apply H. lia.
Qed.

Lemma pkts_ok_forallb : forall id l, pkts_ok id l ->
  forallb (fun p => ((pk_kind p =? K_REG1) || (pk_kind p =? K_REG2)) && (pk_id p =? id)) l = true.
Proof.
  induction 1 as [|p l [Hk Hi] H IH]; cbn [forallb]; auto.
  rewrite IH, andb_true_r. rewrite Hi, Z.eqb_refl, andb_true_r. destruct Hk as [-> | ->]; reflexivity.
Qed.

Lemma no_reg2 : forall l, (forall k, reg2_cnt l k = 0) ->
  forallb (fun p => negb (pk_kind p =? K_REG2)) l = true.
Proof.
  induction l as [|p l IH]; intro H; [reflexivity|]. cbn [forallb].
  assert (H0 : forall k, reg2_cnt [p] k = 0 /\ reg2_cnt l k = 0).
  { intro k. specialize (H k). rewrite reg2_cnt_cons in H.
    pose proof (reg2_cnt_nonneg [p] k). pose proof (reg2_cnt_nonneg l k). lia. }
  rewrite IH by apply H0. destruct (H0 (pk_dst p)) as [Hp _].
  unfold reg2_cnt in Hp. cbn [filter] in Hp. rewrite Z.eqb_refl, andb_true_r in Hp.
  destruct (pk_kind p =? K_REG2); [discriminate|reflexivity].
Qed.

Definition wf_op (n : Z) (o : op) : Prop :=
  match o with
  | Ngp i t | Reg3 i t | RegErr i t | Reg2 i _ _ t => 0 <= i < n /\ 0 <= t
  | Tick t _ _ => 0 <= t
  end.

Lemma wf_opb_iff : forall n o, wf_opb n o = true <-> wf_op n o.
Proof. intros n [i t|i l g t|i t|i t|t a d]; unfold wf_opb, wf_op, in_range; lia. Qed.

Record SInv (n : Z) (s : st) : Prop := {
  inv_reg : RInv n (s_reg s);
  inv_len : blen (s_conn s) = n;
  inv_active : r_active (s_reg s) = 0 -> none_conn (s_conn s)
}.
Arguments inv_reg {n s}. Arguments inv_len {n s}. Arguments inv_active {n s}.

Definition timed_out (s : st) (o : op) : bool :=
  match o with Tick now _ _ => texp (s_reg s) now | _ => false end.
(** the monitor's [accepted], read on the two states *)
Definition accepts (s : st) (o : op) (s' : st) : bool :=
  is_reg2 o && is_some (r_pending (s_reg s)) && is_none (r_pending (s_reg s')).
Definition ends (s : st) (o : op) (s' : st) : bool :=
  accepts s o s' || is_regerr o || timed_out s o.

Record Step (n : Z) (s : st) (o : op) (s' : st) (out : list pkt) : Prop := {
  sp_inv : SInv n s';
  (* no REG1: the attempt goes on unchanged unless it ends; or one REG1, to [j], which is a
     pass re-transmitting to the awaited uplink, or starts an attempt while none is connected *)
  sp_reg1 :
    (reg1_of out = [] /\
     r_pending (s_reg s') = (if ends s o s' then None else r_pending (s_reg s)) /\
     (r_pending (s_reg s') <> None -> r_ptimeout (s_reg s') = r_ptimeout (s_reg s)) /\
     (timed_out s o = true -> r_target (s_reg s') = None))
    \/
    (exists j, reg1_of out = [j] /\ 0 <= j < n /\ ends s o s' = false /\
       r_pending (s_reg s') = Some j /\ r_ptimeout (s_reg s') = op_now o + REG2_WAIT_MS /\
       ((is_tick o = true /\ r_pending (s_reg s) = Some j) \/
        (r_pending (s_reg s) = None /\ none_conn (s_conn s'))));
  sp_id :
    (accepts s o s' = false /\ r_id (s_reg s') = r_id (s_reg s)) \/
    exists i len tag now, o = Reg2 i len tag now /\ r_pending (s_reg s) = Some i /\
      REG2_MIN_LEN <= len /\ r_id (s_reg s') = tag /\ r_pending (s_reg s') = None /\
      r_flag (s_reg s') = true /\ r_target (s_reg s') = None;
  sp_pkts : pkts_ok (r_id (s_reg s')) out;
  sp_conn : match o with
            | Reg3 i _ => s_conn s' = set_nth (s_conn s) i true
            | _ => conn_drop (s_conn s) (s_conn s')
            end;
  sp_rounds :
    match o with
    | Tick now amb due =>
      r_flag (s_reg s') = false /\
      forall k, 0 <= k < n ->
        Z.b2z (r_flag (s_reg s)) <= reg2_cnt out k <= Z.b2z (r_flag (s_reg s)) + Z.b2z (memz k due)
    | _ =>
      (forall k, reg2_cnt out k = 0) /\
      r_flag (s_reg s') = r_flag (s_reg s) || accepts s o s'
    end;
  (* progress: once nothing is awaited or counted active a REG_NGP starts an attempt *)
  sp_ngp : forall i t, o = Ngp i t -> r_pending (s_reg s) = None -> r_active (s_reg s) = 0 ->
           r_pstate (s_reg s) <> PWaiting -> reg1_of out = [i]
}.
Arguments sp_inv {n s o s' out}. Arguments sp_reg1 {n s o s' out}. Arguments sp_id {n s o s' out}.
Arguments sp_pkts {n s o s' out}. Arguments sp_conn {n s o s' out}. Arguments sp_rounds {n s o s' out}.
Arguments sp_ngp {n s o s' out}.

Lemma quiet_step : forall n s o s',
  SInv n s' -> is_tick o = false -> is_regerr o = false ->
  r_id (s_reg s') = r_id (s_reg s) -> r_pending (s_reg s') = r_pending (s_reg s) ->
  r_ptimeout (s_reg s') = r_ptimeout (s_reg s) -> r_flag (s_reg s') = r_flag (s_reg s) ->
  match o with
  | Reg3 i _ => s_conn s' = set_nth (s_conn s) i true
  | _ => conn_drop (s_conn s) (s_conn s')
  end ->
  (forall i t, o = Ngp i t -> r_pending (s_reg s) = None -> r_active (s_reg s) = 0 ->
               r_pstate (s_reg s) = PWaiting) ->
  Step n s o s' [].
Proof.
  intros n s o s' I Ht Hr Hid Hp Hpt Hf Hc Hn.
  assert (Ha : accepts s o s' = false).
  { unfold accepts. rewrite Hp. destruct (is_reg2 o), (r_pending (s_reg s)); reflexivity. }
  assert (He : ends s o s' = false).
  { unfold ends. rewrite Ha, Hr. destruct o; try reflexivity. discriminate. }
  constructor; auto.
  - left. rewrite He. repeat split; auto. destruct o; discriminate.
  - constructor.
  - rewrite Ha, orb_false_r. destruct o; try discriminate; (split; [reflexivity|exact Hf]).
  - intros i t E Hp0 Ha0 Hw. contradiction Hw. eauto.
Qed.

Lemma ngp_step : forall n s i now, SInv n s -> 0 <= i < n -> 0 <= now ->
  Step n s (Ngp i now) (fst (step true s (Ngp i now))) (snd (step true s (Ngp i now))).
Proof.
  intros n [r conn] i now [IR Il Ia] Hi Hnow. cbn [s_reg s_conn] in *.
  pose proof IR as [Ip It Iw Ipr].
  rewrite ngp_cases by (intro W; apply (Iw W)).
  destruct (is_probing r) eqn:Ew; [|destruct ((r_active r =? 0) && is_none (r_pending r)) eqn:Ec]; cbn [fst snd].
  - (* a probe response *)
    unfold handle_probe_response. fold (is_probing r). rewrite Ew.
    apply quiet_step; rsimpl; auto using conn_drop_refl.
    + constructor; rsimpl; auto. constructor; rsimpl; auto. apply probe_respond_in; exact Ipr.
    + intros. apply is_probing_iff; exact Ew.
  - (* nothing awaited, no uplink counted active: the attempt starts at once *)
    apply andb_true_iff in Ec as [Ea Ep]. apply is_none_true in Ep.
    assert (Hnw : r_pstate r <> PWaiting) by (intro W; apply is_probing_iff in W; congruence).
    pose proof REG2_WAIT_pos. cbn [build_reg1_for fst]. constructor; rsimpl.
    + constructor; rsimpl; auto. apply (rinv_arms n now (Some i) r); auto; [repeat split|].
      intros j [= <-]. auto.
    + right. exists i. cbn [op_now]. repeat split; auto; try lia. right. split; [exact Ep|apply Ia; lia].
    + left. split; reflexivity.
    + repeat constructor.
    + apply conn_drop_refl.
    + split; [reflexivity|]. symmetry; apply orb_false_r.
    + intros i0 t E. inversion E; reflexivity.
  - (* ignored *)
    apply quiet_step; rsimpl; auto using conn_drop_refl. constructor; auto.
    intros i0 t _ Hp Ha. rewrite Hp, Ha in Ec. discriminate.
Qed.

Lemma reg2_step : forall n s i len tag now, SInv n s -> 0 <= i < n -> 0 <= now ->
  Step n s (Reg2 i len tag now) (fst (step true s (Reg2 i len tag now)))
       (snd (step true s (Reg2 i len tag now))).
Proof.
  intros n [r conn] i len tag now [IR Il Ia] Hi Hnow. cbn [step fst snd s_reg s_conn] in *.
  pose proof IR as [Ip It Iw Ipr].
  rewrite handle_reg2_cases. destruct ((REG2_MIN_LEN <=? len) && opt_is (r_pending r) i) eqn:Ec.
  - (* from the awaited uplink, full length: the id is adopted *)
    apply andb_true_iff in Ec as [El Ep]. apply opt_is_true in Ep.
    assert (Ha : accepts (mkSt r conn) (Reg2 i len tag now) (mkSt (mkReg tag None (now + REG3_WAIT_MS)
                   (r_active r) (r_hasconn r) true None 0 (r_pstate r) (r_pid r) (r_probes r)) conn) = true).
    { unfold accepts. rsimpl. rewrite Ep. reflexivity. }
    constructor; unfold ends; rewrite ?Ha; rsimpl.
    + constructor; rsimpl; auto. apply (rinv_idle n r); auto.
    + left. repeat split; congruence.
    + right. exists i, len, tag, now. repeat split; auto. lia.
    + constructor.
    + apply conn_drop_refl.
    + split; [reflexivity|]. symmetry; apply orb_true_r.
    + intros; discriminate.
  - (* too short, or not from the awaited uplink *)
    apply quiet_step; rsimpl; auto using conn_drop_refl. constructor; auto. intros; discriminate.
Qed.

Lemma reg3_step : forall n s i now, SInv n s -> 0 <= i < n -> 0 <= now ->
  Step n s (Reg3 i now) (fst (step true s (Reg3 i now))) (snd (step true s (Reg3 i now))).
Proof.
  intros n [r conn] i now [IR Il Ia] Hi Hnow. cbn [step fst snd s_reg s_conn] in *. unfold handle_reg3.
  apply quiet_step; rsimpl; auto; [|intros; discriminate].
  constructor; rsimpl.
  - apply (rinv_arms n now None r); auto; [repeat split|discriminate].
  - rewrite blen_set_nth; exact Il.
  - lia.
Qed.

Lemma regerr_step : forall n s i now, SInv n s -> 0 <= i < n -> 0 <= now ->
  Step n s (RegErr i now) (fst (step true s (RegErr i now))) (snd (step true s (RegErr i now))).
Proof.
  intros n [r conn] i now [IR Il Ia] Hi Hnow. cbn [step fst snd s_reg s_conn] in *. unfold handle_reg_err.
  pose proof IR as [Ip It Iw Ipr].
  constructor; rsimpl.
  - constructor; rsimpl.
    + apply (rinv_idle n r); auto.
    + rewrite blen_set_nth; exact Il.
    + intro A. apply none_conn_set_false; auto.
  - left. repeat split; congruence.
  - left. split; reflexivity.
  - constructor.
  - apply conn_drop_set_false.
  - split; [reflexivity|]. symmetry; apply orb_false_r.
  - intros; discriminate.
Qed.

Lemma tick_step : forall n s now amb due, SInv n s -> 0 <= now ->
  Step n s (Tick now amb due) (fst (tick s now amb due)) (snd (tick s now amb due)).
Proof.
  intros n [r conn] now amb due [IR Il Ia] Hnow. cbn [s_reg s_conn] in *.
  destruct (tick_head n r now amb IR) as (I1 & Hid & Hfl & Hp1 & Hsame & Htg1).
  destruct (tick (mkSt r conn) now amb due) as [[r4 conn2] out] eqn:E. cbn [fst snd].
  destruct (tick_spec n conn now amb due r r4 conn2 out Il (inv_tgt I1) E)
    as (Hc & Hpk & Hact & Hflag & Hcnt & a & A & R1 & Ha). cbv zeta in *.
  set (r1 := if is_probing _ then _ else _) in *. clearbody r1.
  (* an uplink armed in the pass was the REG1 target after the head, so nothing was abandoned there *)
  assert (Hj : forall j, a = Some j -> r_target r1 = Some j).
  { intros j Ej. destruct (Ha j Ej) as [Ep|(_ & Et & _)]; [apply (inv_pend I1 j Ep)|exact Et]. }
  assert (He : ends (mkSt r conn) (Tick now amb due) (mkSt r4 conn2) = texp r now) by reflexivity.
  pose proof A as (Aid & _ & _ & A').
  constructor; rsimpl; cbn [timed_out s_reg]; rewrite ?He.
  - constructor; rsimpl;
      [|unfold blen; rewrite <- (Forall2_length Hc); exact Il|rewrite Hact; apply count_true_zero].
    apply (rinv_arms n now a r1); auto. intros j Ej. apply Hj in Ej. split; [exact (inv_tgt I1 j Ej)|].
    intro W. destruct (inv_wait I1 W) as (_ & ? & _). congruence.
  - rewrite R1. destruct a as [j|]; destruct A' as (Ep4 & Ept4 & Etg4).
    + right. exists j. pose proof (Hj j eq_refl) as Et.
      destruct (texp r now); [rewrite Htg1 in Et by reflexivity; discriminate|].
      repeat split; try assumption; try apply (inv_tgt I1 j Et). rewrite <- Hp1.
      destruct (Ha j eq_refl) as [Ep|(Ep & _ & Ez)]; [left; split; [reflexivity|exact Ep]|right].
      split; [exact Ep|apply count_true_zero; exact Ez].
    + left. split; [reflexivity|]. split; [congruence|]. split; [|intro Ex; rewrite Etg4; exact (Htg1 Ex)].
      intro N. rewrite Ept4, Hsame; congruence.
  - left. split; [reflexivity|congruence].
  - rewrite Aid. exact Hpk.
  - exact Hc.
  - split; [exact Hflag|]. rewrite <- Hfl. intros k Hk. specialize (Hcnt k). unfold in_range in Hcnt. clear - Hcnt Hk. lia.
  - intros; discriminate.
Qed.

Lemma step_spec : forall n s o, SInv n s -> wf_op n o ->
  Step n s o (fst (step true s o)) (snd (step true s o)).
Proof.
  intros n s o I W.
  destruct o; cbn [wf_op] in W;
    [apply ngp_step|apply reg2_step|apply reg3_step|apply regerr_step|apply tick_step]; tauto.
Qed.

(** what the monitor remembers agrees with the manager: the outstanding REG1 and its time of
    transmission with the awaited uplink and its deadline, the owed broadcast with the flag *)
Definition Tracks (g : ghost) (s : st) : Prop :=
  match g_out g with
  | None => r_pending (s_reg s) = None
  | Some (j, t) => r_pending (s_reg s) = Some j /\ r_ptimeout (s_reg s) = t + REG2_WAIT_MS
  end /\ g_owed g = r_flag (s_reg s).

Ltac osimpl :=
  cbn [obs_of o_out o_id o_pending o_ptimeout o_active o_hasconn o_flag o_target o_next
       o_probing o_nprobes o_conn].

(** One step of the monitor over a [Step] whose pre-state the ghost tracks: which field of
    [Step] gives which clause. *)
Section Monitor.
Context (n : Z) (g : ghost) (s : st) (outp : list pkt) (o : op) (s' : st) (out : list pkt)
        (T : Tracks g s) (W : wf_op n o) (S : Step n s o s' out).

Lemma expired_timed_out : expired g o = timed_out s o.
Proof.
  destruct T as [Tout _]. destruct o; try reflexivity. unfold expired, timed_out, texp.
  change TEXT_TIMEOUT_MS with REG2_WAIT_MS.   (* the code's constant is the 4 s of the text *)
  destruct (g_out g) as [[j t]|]; [destruct Tout as [-> ->]|rewrite Tout]; reflexivity.
Qed.

Lemma cl3_ok : cl3 g (obs_of s outp) o (obs_of s' out) = true.
Proof.
  destruct T as [Tout _]. unfold cl3. change (accepted _ o _) with (accepts s o s'). osimpl.
  destruct (sp_id S) as [[-> ->]|(i & len & tag & now & -> & Hp & Hl & Hid & Hp' & _)]; [apply Z.eqb_refl|].
  unfold accepts, out1. osimpl. rewrite Hp, Hp', Hid. rewrite Hp in Tout.
  destruct (g_out g) as [[j t]|]; [destruct Tout as [E _]; inversion E; subst j|discriminate].
  cbn [is_reg2 is_some is_none negb andb expired out_on].
  rewrite !Z.eqb_refl, (proj2 (Z.leb_le _ _) Hl). reflexivity.
Qed.

Lemma cl4_ok : cl4 n g o (obs_of s' out) = true.
Proof.
  destruct T as [_ Towed]. pose proof (sp_rounds S) as R.
  unfold cl4. osimpl. destruct o; try (apply no_reg2, R).
  destruct R as [_ Hc]. apply range_all_intro. intros k Hk.
  pose proof (blen_nonneg (s_conn s')) as Hn. rewrite (inv_len (sp_inv S)) in Hn.
  rewrite Z2Nat.id in Hk by assumption.
  rewrite reg2_count_eq, Towed. specialize (Hc k Hk). clear - Hc.
  destruct (r_flag (s_reg s)), (memz k due); cbn [Z.b2z] in Hc; lia.
Qed.

Lemma cl5_ok : cl5 (obs_of s' out) = true.
Proof. apply pkts_ok_forallb, (sp_pkts S). Qed.

Lemma cl6_ok : cl6 (obs_of s outp) o (obs_of s' out) = true.
Proof.
  pose proof (sp_conn S) as C. unfold cl6. osimpl. destruct o; try (apply conn_ok_drop, C).
  rewrite C. apply (conn_ok_set_true _ i 0). apply W.
Qed.

Lemma cl9_ok : cl9 g (obs_of s outp) o (obs_of s' out) = true.
Proof.
  destruct T as [Tout _]. unfold cl9, out1. destruct o as [i t| | | |]; try reflexivity. osimpl. cbn [expired].
  destruct (_ && _) eqn:G; [|reflexivity].
  repeat (apply andb_true_iff in G; destruct G as [G ?]).
  rewrite reg1_dsts_eq, (sp_ngp S i t eq_refl);
    [cbn; rewrite Z.eqb_refl; reflexivity| |apply Z.eqb_eq; assumption|].
  - destruct (g_out g) as [[]|]; [discriminate|exact Tout].
  - intro Wt. apply is_probing_iff in Wt. destruct (is_probing (s_reg s)); discriminate.
Qed.

Lemma owed_next : (if is_tick o then false else g_owed g || accepts s o s') = r_flag (s_reg s').
Proof.
  destruct T as [_ ->]. pose proof (sp_rounds S) as R. destruct o; symmetry; apply R.
Qed.

(** Clauses 1, 2, 7, 8 and the next [g_out] are all read off [sp_reg1]. *)
Lemma spec_ok :
  all_true (clauses n g (obs_of s outp) o (obs_of s' out)) /\
  Tracks (ghost_next g (obs_of s outp) o (obs_of s' out)) s'.
Proof.
  destruct T as [Tout _].
  unfold all_true, clauses. cbn [forallb].
  rewrite cl3_ok, cl4_ok, cl5_ok, cl6_ok, cl9_ok.
  unfold Tracks, cl1, cl2, cl7, cl8, no_reg1, ghost_next, out1. cbn [g_out g_owed].
  change (accepted _ o _) with (accepts s o s'). rewrite expired_timed_out, owed_next, !reg1_dsts_eq. osimpl.
  destruct (sp_reg1 S) as [(-> & Hp' & Hpt & _)|(j & -> & Hj & He & Hp' & Hpt & Hc)]; unfold ends in *.
  - (* no REG1: what is outstanding stays so unless the attempt ends *)
    cbn [forallb andb].
    destruct (accepts s o s' || is_regerr o) eqn:E1; [|destruct (timed_out s o)]; cbn [orb] in Hp';
      try (rewrite Hp'; cbn [is_none]; rewrite !orb_true_r; repeat split; reflexivity).
    apply orb_false_iff in E1 as [_ ->]. split; [reflexivity|]. split; [|reflexivity].
    rewrite Hp'. destruct (g_out g) as [[j t]|]; [|exact Tout].
    destruct Tout as [E Et]. split; [exact E|]. rewrite <- Et. apply Hpt. congruence.
  - (* one REG1 *)
    apply orb_false_iff in He as [He ->]. apply orb_false_iff in He as [_ ->].
    cbn [forallb negb orb andb]. rewrite andb_true_r. split; [|auto].
    destruct Hc as [[-> Hp]|[Hp Hnc]]; rewrite Hp in Tout.
    + destruct (g_out g) as [[j' t]|]; [|discriminate]. destruct Tout as [E _]. inversion E; subst j'.
      cbn [out_on andb]. rewrite Z.eqb_refl. reflexivity.
    + destruct (g_out g) as [[j' t]|]; [destruct Tout; discriminate|].
      apply none_connected_iff in Hnc. rewrite Hnc, orb_true_r. reflexivity.
Qed.
End Monitor.

Lemma mon_run_model : forall n ops g s outp,
  SInv n s -> Tracks g s -> Forall (wf_op n) ops ->
  mon_run n g (obs_of s outp) ops (run_from true s ops) = 0%N.
Proof.
  induction ops as [|o ops IH]; intros g s outp I T W; cbn [run_from mon_run]; auto.
  inversion W as [|? ? Wo Wr]; subst.
  pose proof (step_spec n s o I Wo) as S. destruct (step true s o) as [s' out]. cbn [fst snd] in S.
  cbn [mon_run]. unfold mon_step.
  destruct (spec_ok n g s outp o s' out T Wo S) as [A T'].
  rewrite (first_bad_all_true _ 0%N A). cbn [N.eqb]. apply IH; auto. exact (sp_inv S).
Qed.

Lemma start_inv : forall n id0 pid probe, 0 <= n ->
  SInv n (fst (start n id0 pid probe)) /\ Tracks g0 (fst (start n id0 pid probe)).
Proof.
  intros n id0 pid probe Hn.
  assert (Hl : blen (repeat false (Z.to_nat n)) = n) by (rewrite blen_repeat; lia).
  unfold start, Tracks. destruct probe as [t|].
  - unfold start_probing, reg_new. rsimpl. cbn [pstate_eqb negb orb Z.ltb Z.compare].
    destruct (probe_all (Z.to_nat n) 0 pid t) as [ps rs] eqn:E.
    destruct (probe_all_spec _ _ _ _ _ _ E) as (L & F & _).
    assert (Fin : probes_in n rs).
    { eapply Forall_impl; [|exact F]. cbn. intros p Hp. lia. }
    destruct rs as [|p rs']; cbn [fst g0 g_out g_owed]; rsimpl; (split; [|auto]);
      constructor; rsimpl; auto using none_conn_repeat;
      constructor; rsimpl; auto; try (intros; discriminate).
    intros _. cbn [length] in L. repeat split; auto. lia.
  - unfold init, reg_new. cbn [fst g0 g_out g_owed]. rsimpl. split; [|auto].
    constructor; rsimpl; auto using none_conn_repeat.
    constructor; rsimpl; auto; try (intros; discriminate). constructor.
Qed.

Theorem model_ok : forall n id0 pid probe ops,
  wf_ops n ops = true -> ok_C07 n ops (run true n id0 pid probe ops) = true.
Proof.
  intros n id0 pid probe ops W. unfold wf_ops in W. apply andb_true_iff in W as [Hn W].
  assert (Wf : Forall (wf_op n) ops).
  { rewrite forallb_forall in W. apply Forall_forall. intros o Ho. apply wf_opb_iff, W, Ho. }
  unfold ok_C07, mon_C07, run. destruct (start_inv n id0 pid probe ltac:(lia)) as [I T].
  destruct (start n id0 pid probe) as [s0 out0]. cbn [fst snd] in *.
  rewrite (mon_run_model n ops g0 s0 out0 I T Wf). reflexivity.
Qed.

Inductive reachable (n : Z) : st -> Prop :=
| reach_start : forall id0 pid probe, reachable n (fst (start n id0 pid probe))
| reach_step : forall s o, reachable n s -> wf_op n o -> reachable n (fst (step true s o)).

Lemma reachable_inv : forall n s, 0 <= n -> reachable n s -> SInv n s.
Proof.
  intros n s Hn R. induction R as [id0 pid probe|s o R I W].
  - apply start_inv; exact Hn.
  - exact (sp_inv (step_spec n s o I W)).
Qed.

Lemma reach_spec : forall n, 0 <= n -> forall s, reachable n s -> forall o, wf_op n o ->
  Step n s o (fst (step true s o)) (snd (step true s o)).
Proof. intros n Hn s R o W. apply step_spec; [apply reachable_inv|]; assumption. Qed.

Section Clauses.
Context {n : Z} {s : st} {o : op} {s' : st} {out : list pkt} (S : Step n s o s' out).

Lemma step_reg1 : forall p, In p out -> pk_kind p = K_REG1 ->
  reg1_of out = [pk_dst p] /\ 0 <= pk_dst p < n /\
  r_pending (s_reg s') = Some (pk_dst p) /\
  r_ptimeout (s_reg s') = op_now o + REG2_WAIT_MS /\
  ((is_tick o = true /\ r_pending (s_reg s) = Some (pk_dst p)) \/
   (r_pending (s_reg s) = None /\ none_conn (s_conn s'))).
Proof.
  intros p Hin Hk.
  assert (Hd : In (pk_dst p) (reg1_of out)).
  { unfold reg1_of. apply in_map, filter_In. split; [exact Hin|]. rewrite Hk. reflexivity. }
  destruct (sp_reg1 S) as [(E & _)|(j & E & Hj & _ & Hp & Ht & Hc)]; rewrite E in Hd.
  - contradiction.
  - destruct Hd as [<-|[]]. auto.
Qed.

Lemma step_conn : forall k, 0 <= k -> nth (Z.to_nat k) (s_conn s') false = true ->
  nth (Z.to_nat k) (s_conn s) false = true \/ exists t, o = Reg3 k t.
Proof.
  intros k Hk H. pose proof (sp_conn S) as C.
  destruct o as [| |i t| |]; try (left; eapply conn_drop_nth; eassumption).
  rewrite C in H. destruct (Z.eq_dec k i) as [->|Hne]; [right; eexists; reflexivity|left].
  rewrite nth_set_nth_other in H by assumption. exact H.
Qed.

Lemma step_timeout : forall j now amb due, o = Tick now amb due -> r_pending (s_reg s) = Some j ->
  (r_ptimeout (s_reg s) <= now ->
     r_pending (s_reg s') = None /\ r_target (s_reg s') = None /\ reg1_of out = []) /\
  (now < r_ptimeout (s_reg s) -> r_pending (s_reg s') = Some j).
Proof.
  intros j now amb due -> Hp. pose proof (sp_reg1 S) as R.
  unfold ends, accepts, timed_out, texp in R. rewrite Hp in R. cbn in R. split; intro Hd.
  - replace (r_ptimeout (s_reg s) <=? now) with true in R by lia.
    destruct R as [(R1 & Fp & _ & Ft)|(j' & _ & _ & Etx & _)]; [auto|discriminate].
  - replace (r_ptimeout (s_reg s) <=? now) with false in R by lia.
    destruct R as [(_ & Fp & _)|(j' & _ & _ & _ & Fp & _ & [[_ Hc]|[Hc _]])]; congruence.
Qed.
End Clauses.

(** the history that exhibits the defect of the code before the fix ([step false]) *)
Definition f4_ops : list op :=
  [Ngp 0 10; Reg2 0 258 7 20; Tick 30 30 []; Reg3 0 40; Ngp 1 50].

