(** ClassifierP.v — lemmas about the classifier model (Model/Classifier.v).
    All float operations stay opaque: every statement is about the discrete core,
    with shares / totals / tiers being whatever the float front-end computes. *)
From Coq Require Import Floats.
From Srtla Require Import Base Constants FConstants Classifier BaseP.
Local Open Scope Z_scope.

Lemma min_total_eq : MIN_TOTAL_BPS_FOR_CLASSIFICATION = 0x1.86ap+16%float.
Proof. reflexivity. Qed.

Lemma lookup_keep {A} (d : A) (c : lin -> bool) (g : lin -> A) ls id :
  lookup d (keep_some (map (fun l => if c l then Some (l_id l, g l) else None) ls)) id =
  match find (fun l => l_id l =? id) (filter c ls) with Some l => g l | None => d end.
Proof.
  induction ls as [|x ls IH]; [reflexivity|]. cbn [map keep_some filter].
  destruct (c x); [|exact IH]. cbn [lookup find]. destruct (l_id x =? id); [reflexivity|exact IH].
Qed.

Lemma find_filter_some (c : lin -> bool) ls id l :
  find (fun l => l_id l =? id) (filter c ls) = Some l -> In l ls /\ c l = true /\ l_id l = id.
Proof.
  intros H. apply find_some in H. destruct H as [Hin Hid]. apply filter_In in Hin.
  apply Z.eqb_eq in Hid. tauto.
Qed.

Lemma sat_succ x : 0 <= x < u32_max -> sat_add_u32 x 1 = x + 1.
Proof. unfold sat_add_u32, clamp, u32_max. lia. Qed.

(** [link_step] on a connected link, as a function of the link's memory entry [e] and in three
    parts that can be reasoned about separately: the delay streak, the verdict as a flat
    decision table (the first row that applies wins: probation, which overrides whatever
    [signals] says, then sustained delay, no traffic, low share), and the share-weak streak
    with the probation counter. *)
Definition delay_sig (sel : Z) (l : lin) : bool := (sel <? rtt_of l) || l_qb l.

Lemma signal_eq ls l : signal ls l = delay_sig (tier_of ls) l.
Proof. reflexivity. Qed.

Definition delay_streak (sel : Z) (e : lst) (l : lin) : Z :=
  if delay_sig sel l then sat_add_u32 (s_ds e) 1 else 0.

Definition threshold (n : Z) (e : lst) : Z :=
  if s_pw e then LEAVE_FAIR_SHARE_NUMERATOR / n else ENTER_FAIR_SHARE_NUMERATOR / n.

Definition signals (n : Z) (total : float) (sel : Z) (e : lst) (l : lin) : bool * reason :=
  if delay_sig sel l && (WEAK_SUSTAIN_TICKS <=? sat_add_u32 (s_ds e) 1)
  then (true, if sel <? rtt_of l then RR else RQ)
  else if (bps_of l =? 0)%float then (true, RN)
  else if share_pm (bps_of l) total <? threshold n e then (true, RL)
  else (false, RH).

Definition decide (n : Z) (total : float) (sel : Z) (e : lst) (l : lin) : bool * reason :=
  if 0 <? s_pr e then (false, RH) else signals n total sel e l.

Definition share_counts (ws pr : Z) (share_weak : bool) : Z * Z :=
  if 0 <? pr then (0, pr - 1)
  else if share_weak then
    if PROBATION_INTERVAL_TICKS <=? sat_add_u32 ws 1 then (0, PROBATION_WINDOW_TICKS)
    else (sat_add_u32 ws 1, pr)
  else (0, pr).

Definition step_out (n : Z) (total : float) (sel : Z) (e : lst) (l : lin) : lout :=
  let d := decide n total sel e l in
  V (l_id l) (fst d) (snd d) (share_pm (bps_of l) total) (threshold n e).

Definition step_entry (n : Z) (total : float) (sel : Z) (e : lst) (l : lin) : lst :=
  let o := step_out n total sel e l in
  let c := share_counts (s_ws e) (s_pr e) (share_verdict o) in
  E (o_weak o) (delay_streak sel e l) (fst c) (snd c).

(** In two stages, each following the code's tests in their order.  First the verdict the code
    forms before it looks at probation is [signals]: without a delay signal the streak is 0,
    below [WEAK_SUSTAIN_TICKS], so the sustained-delay arm is not taken, as in the table; the
    two hysteresis tests are one comparison with [threshold].  Then, with that verdict a
    variable, probation and the share-weak streak on both sides. *)
Lemma link_step_conn n total sel st l :
  l_conn l = true ->
  link_step n total sel st l =
  (step_out n total sel (mem st (l_id l)) l,
   Some (l_id l, step_entry n total sel (mem st (l_id l)) l)).
Proof.
  intros Hc. unfold link_step, mem. rewrite Hc. cbn [negb].
  generalize (lookup lst0 st (l_id l)). intros e.
  unfold step_entry, step_out, share_verdict, decide, share_counts, delay_streak, delay_signal.
  cbn [o_weak o_reason].
  set (wr := if WEAK_SUSTAIN_TICKS <=? _ then _ else _).
  assert (Hwr : wr = signals n total sel e l).
  { subst wr. unfold signals, delay_sig, threshold.
    destruct (sel <? rtt_of l); [|destruct (l_qb l)]; cbn [orb andb];
      try (destruct (WEAK_SUSTAIN_TICKS <=? sat_add_u32 (s_ds e) 1); [reflexivity|]);
      (destruct (bps_of l =? 0)%float; [reflexivity|]);
      destruct (s_pw e); cbn [andb negb]; try reflexivity;
      destruct (share_pm (bps_of l) total <? _); reflexivity. }
  rewrite <- Hwr. clearbody wr. clear Hwr. unfold delay_sig.
  destruct (sel <? rtt_of l); [|destruct (l_qb l)]; cbn [orb];
    (destruct (0 <? s_pr e); [reflexivity|]);
    (destruct (fst wr && is_share_reason (snd wr));
     [destruct (PROBATION_INTERVAL_TICKS <=? sat_add_u32 (s_ws e) 1)|]); reflexivity.
Qed.

Lemma link_step_none n total sel st l :
  l_conn l = false -> link_step n total sel st l = (V (l_id l) false RH 0 0, None).
Proof. intros Hc. unfold link_step. rewrite Hc. reflexivity. Qed.

(** Every row after the first holds outside probation only ([s_pr e <= 0]); beyond that a row does
    not carry the negations of the rows above it.  [1 <= s_ds e]: a sustained delay streak is a
    streak already running, that is, the signal was there on the link's previous tick as well. *)
Lemma decide_rows (P : bool * reason -> Prop) n total sel e l :
  (0 < s_pr e -> P (false, RH)) ->
  (s_pr e <= 0 -> 1 <= s_ds e -> (sel <? rtt_of l) = true -> P (true, RR)) ->
  (s_pr e <= 0 -> 1 <= s_ds e -> l_qb l = true -> P (true, RQ)) ->
  (s_pr e <= 0 -> P (true, RN)) ->
  (s_pr e <= 0 -> share_pm (bps_of l) total < threshold n e -> P (true, RL)) ->
  (s_pr e <= 0 -> threshold n e <= share_pm (bps_of l) total -> P (false, RH)) ->
  P (decide n total sel e l).
Proof.
  intros Hprob Hrr Hrq Hidle Hlow Hok. unfold decide, signals.
  destruct (Z.ltb_spec 0 (s_pr e)) as [Hp|Hp]; [exact (Hprob Hp)|].
  destruct (delay_sig sel l && _) eqn:Hd.
  - apply andb_true_iff in Hd. destruct Hd as [Hsig Hst]. apply Z.leb_le in Hst.
    assert (Hds : 1 <= s_ds e).
    { unfold sat_add_u32, clamp in Hst. change WEAK_SUSTAIN_TICKS with 2 in Hst. lia. }
    unfold delay_sig in Hsig.
    destruct (sel <? rtt_of l); [exact (Hrr Hp Hds eq_refl)|exact (Hrq Hp Hds Hsig)].
  - destruct (bps_of l =? 0)%float; [exact (Hidle Hp)|].
    destruct (Z.ltb_spec (share_pm (bps_of l) total) (threshold n e)) as [H|H];
      [exact (Hlow Hp H)|exact (Hok Hp H)].
Qed.

Lemma step_out_probation n total sel e l :
  0 < s_pr e ->
  o_weak (step_out n total sel e l) = false /\ o_reason (step_out n total sel e l) = RH.
Proof.
  intros H. unfold step_out. cbn [o_weak o_reason].
  apply decide_rows; cbn [fst snd]; intros; try (split; reflexivity); lia.
Qed.

Lemma step_out_delay n total sel e l :
  delay_verdict (step_out n total sel e l) = true -> delay_sig sel l = true /\ 1 <= s_ds e.
Proof.
  unfold delay_verdict, step_out, delay_sig. cbn [o_weak o_reason].
  apply decide_rows; cbn [fst snd andb]; try discriminate.
  - intros _ Hds Hrtt _. rewrite Hrtt. split; [reflexivity|exact Hds].
  - intros _ Hds Hqb _. rewrite Hqb. split; [apply orb_true_r|exact Hds].
Qed.

Lemma step_out_reason n total sel e l :
  o_weak (step_out n total sel e l) = true ->
  (o_reason (step_out n total sel e l) = RR -> (sel <? rtt_of l) = true) /\
  (o_reason (step_out n total sel e l) = RQ -> l_qb l = true).
Proof.
  unfold step_out. cbn [o_weak o_reason]. apply decide_rows; cbn [fst snd]; try discriminate;
    intros; split; intros; try discriminate; assumption.
Qed.

Lemma step_out_low n total sel e l :
  low_share_verdict (step_out n total sel e l) = true ->
  share_pm (bps_of l) total < threshold n e.
Proof.
  unfold low_share_verdict, step_out. cbn [o_weak o_reason]. apply decide_rows;
    cbn [fst snd andb]; try discriminate. intros _ H _. exact H.
Qed.

Lemma step_out_share_weak n total sel e l :
  s_pr e <= 0 -> delay_sig sel l = false -> share_pm (bps_of l) total < threshold n e ->
  share_verdict (step_out n total sel e l) = true.
Proof.
  intros Hp Hs Hlow. unfold share_verdict, step_out, decide, signals. cbn [o_weak o_reason].
  apply Z.ltb_ge in Hp. apply Z.ltb_lt in Hlow. rewrite Hp, Hs, Hlow.
  destruct (bps_of l =? 0)%float; reflexivity.
Qed.

Lemma step_out_healthy n total sel e l :
  o_weak (step_out n total sel e l) = false ->
  threshold n e <= share_pm (bps_of l) total \/ 0 < s_pr e.
Proof.
  unfold step_out. cbn [o_weak]. apply decide_rows; cbn [fst]; try discriminate; auto.
Qed.

Lemma delay_streak_pos sel e l : 0 <= s_ds e -> (1 <=? delay_streak sel e l) = delay_sig sel l.
Proof.
  intros H. unfold delay_streak. destruct (delay_sig sel l); [|reflexivity].
  apply Z.leb_le. unfold sat_add_u32, clamp, two32. lia.
Qed.

Lemma delay_streak_range sel e l : 0 <= delay_streak sel e l <= u32_max.
Proof. unfold delay_streak, sat_add_u32, clamp, u32_max, two32. destruct (delay_sig sel l); lia. Qed.

Lemma share_counts_probation ws pr b : 0 < pr -> share_counts ws pr b = (0, pr - 1).
Proof. intros H. apply Z.ltb_lt in H. unfold share_counts. rewrite H. reflexivity. Qed.

(** The bounds are those the counters keep ([entry_ok] in C17P.v); within them the increment does
    not saturate. *)
Lemma share_counts_eq ws pr b :
  0 <= ws < 15 -> 0 <= pr <= 3 ->
  share_counts ws pr b =
  if 0 <? pr then (0, pr - 1) else if b then (if ws + 1 =? 15 then (0, 3) else (ws + 1, 0)) else (0, 0).
Proof.
  intros Hws Hpr. unfold share_counts. rewrite sat_succ by (unfold u32_max, two32; lia).
  change PROBATION_INTERVAL_TICKS with 15. change PROBATION_WINDOW_TICKS with 3.
  destruct (Z.ltb_spec 0 pr); [reflexivity|]. replace pr with 0 by lia.
  destruct b; [|reflexivity].
  destruct (Z.leb_spec 15 (ws + 1)), (Z.eqb_spec (ws + 1) 15); try reflexivity; lia.
Qed.

Lemma share_counts_range ws pr b :
  0 <= ws < 15 -> 0 <= pr <= 3 ->
  0 <= fst (share_counts ws pr b) < 15 /\ 0 <= snd (share_counts ws pr b) <= 3 /\
  (0 < snd (share_counts ws pr b) -> fst (share_counts ws pr b) = 0).
Proof.
  intros Hws Hpr. rewrite (share_counts_eq ws pr b Hws Hpr).
  destruct (Z.ltb_spec 0 pr); [|destruct b; [destruct (Z.eqb_spec (ws + 1) 15)|]]; cbn [fst snd]; lia.
Qed.

Lemma tick_outs st ls : t_outs (snd (tick st ls)) = map (verdict st ls) ls.
Proof.
  unfold tick, verdict. destruct (bypassed ls); cbn [snd t_outs]; [reflexivity|].
  rewrite map_map. reflexivity.
Qed.

Lemma tick_sel st ls : bypassed ls = false -> t_sel (snd (tick st ls)) = tier_of ls.
Proof. intros H. unfold tick. rewrite H. reflexivity. Qed.

Lemma tick_state st ls :
  fst (tick st ls) =
  if bypassed ls then []
  else keep_some (map (fun l => snd (link_step (conn_count ls) (total_bps ls) (tier_of ls) st l)) ls).
Proof.
  unfold tick. destruct (bypassed ls); cbn [fst]; [reflexivity|]. rewrite map_map. reflexivity.
Qed.

Lemma tick_st_dump st ls : t_st (snd (tick st ls)) = fst (tick st ls).
Proof. unfold tick. destruct (bypassed ls); reflexivity. Qed.

Lemma classified_iff ls l : classified ls l = true <-> bypassed ls = false /\ l_conn l = true.
Proof. unfold classified. rewrite andb_true_iff, negb_true_iff. reflexivity. Qed.

Lemma verdict_classified st ls l :
  classified ls l = true ->
  verdict st ls l = step_out (conn_count ls) (total_bps ls) (tier_of ls) (mem st (l_id l)) l.
Proof.
  intros H. apply classified_iff in H. destruct H as [Hb Hc].
  unfold verdict. rewrite Hb, (link_step_conn _ _ _ _ _ Hc). reflexivity.
Qed.

Lemma entry_classified st ls l :
  classified ls l = true ->
  entry_after st ls l = step_entry (conn_count ls) (total_bps ls) (tier_of ls) (mem st (l_id l)) l.
Proof.
  intros H. apply classified_iff in H. destruct H as [_ Hc].
  unfold entry_after. rewrite (link_step_conn _ _ _ _ _ Hc). reflexivity.
Qed.

Lemma verdict_unclassified st ls l :
  classified ls l = false ->
  verdict st ls l = V (l_id l) false (if bypassed ls then RB else RH) 0 0.
Proof.
  unfold classified, verdict. destruct (bypassed ls); [reflexivity|]. cbn [negb andb].
  intros Hc. rewrite (link_step_none _ _ _ _ _ Hc). reflexivity.
Qed.

Lemma verdict_id st ls l : o_id (verdict st ls l) = l_id l.
Proof.
  destruct (classified ls l) eqn:Hc;
    [rewrite (verdict_classified st ls l Hc)|rewrite (verdict_unclassified st ls l Hc)]; reflexivity.
Qed.

Lemma entry_counts st ls l :
  classified ls l = true ->
  (s_ws (entry_after st ls l), s_pr (entry_after st ls l)) =
  share_counts (s_ws (mem st (l_id l))) (s_pr (mem st (l_id l))) (share_verdict (verdict st ls l)).
Proof.
  intros Hc. rewrite (entry_classified st ls l Hc), (verdict_classified st ls l Hc).
  symmetry. apply surjective_pairing.
Qed.

Lemma unclassified_not_weak st ls l : classified ls l = false -> o_weak (verdict st ls l) = false.
Proof.
  intros Hc. rewrite (verdict_unclassified st ls l Hc). reflexivity.
Qed.

Lemma weak_is_classified st ls l : o_weak (verdict st ls l) = true -> classified ls l = true.
Proof.
  intros Hw. destruct (classified ls l) eqn:Hc; [reflexivity|].
  rewrite (unclassified_not_weak st ls l Hc) in Hw. discriminate.
Qed.

Lemma probation_forces_not_weak st ls l :
  0 < s_pr (mem st (l_id l)) -> o_weak (verdict st ls l) = false.
Proof.
  intros Hp. destruct (classified ls l) eqn:Hc; [|exact (unclassified_not_weak st ls l Hc)].
  rewrite (verdict_classified st ls l Hc). apply step_out_probation. exact Hp.
Qed.

Lemma probation_counts_down st ls l :
  classified ls l = true -> 0 < s_pr (mem st (l_id l)) ->
  s_pr (entry_after st ls l) = s_pr (mem st (l_id l)) - 1 /\ s_ws (entry_after st ls l) = 0.
Proof.
  intros Hc Hp. pose proof (entry_counts st ls l Hc) as H.
  rewrite (share_counts_probation _ _ _ Hp) in H. injection H as -> ->. split; reflexivity.
Qed.

Lemma mem_tick st ls id :
  mem (fst (tick st ls)) id =
  match find (fun l => l_id l =? id) (filter (classified ls) ls) with
  | Some l => entry_after st ls l
  | None => lst0
  end.
Proof.
  unfold mem. rewrite tick_state. destruct (bypassed ls) eqn:Hb.
  - destruct (find _ _) as [l|] eqn:F; [|reflexivity]. apply find_filter_some in F.
    destruct F as (_ & Hc & _). unfold classified in Hc. rewrite Hb in Hc. discriminate.
  - rewrite <- lookup_keep. f_equal. f_equal. apply map_ext. intros l.
    unfold classified, entry_after. rewrite Hb. destruct (l_conn l) eqn:Hc.
    + rewrite (link_step_conn _ _ _ _ _ Hc). reflexivity.
    + rewrite (link_step_none _ _ _ _ _ Hc). reflexivity.
Qed.

Lemma mem_after_tick st ls l :
  NoDup (map l_id ls) -> In l ls -> classified ls l = true ->
  mem (fst (tick st ls)) (l_id l) = entry_after st ls l.
Proof.
  intros Hnd Hin Hc. rewrite mem_tick. destruct (find _ _) as [l'|] eqn:F.
  - apply find_filter_some in F. destruct F as (Hin' & _ & Hid).
    rewrite (NoDup_map_inj l_id ls l' l Hnd Hin' Hin Hid). reflexivity.
  - apply find_none with (x := l) in F; [|apply filter_In; split; assumption].
    rewrite Z.eqb_refl in F. discriminate.
Qed.

Lemma mem_tick_cases (P : lst -> Prop) st ls id :
  P lst0 ->
  (forall l, In l ls -> l_id l = id -> classified ls l = true -> P (entry_after st ls l)) ->
  P (mem (fst (tick st ls)) id).
Proof.
  intros H0 H. rewrite mem_tick. destruct (find _ _) as [l|] eqn:F; [|exact H0].
  apply find_filter_some in F. destruct F as (Hin & Hc & Hid). exact (H l Hin Hid Hc).
Qed.
