(** ConcP.v — concurrent setters / snapshot readers: the atomic-action decomposition agrees with
    the sequential dispatcher, and under EVERY interleaving loads return the latest store, the
    last store wins, and the timeout stays clamped. *)
From Srtla Require Import Base Json Control ControlSpec ControlConc ControlP.
Local Open Scope string_scope.
Local Open Scope Z_scope.

Lemma snapshot_mem_of c : snapshot_of (mem_of c) = c.
Proof. destruct c as [[] [] [] mif st t]; reflexivity. Qed.

Lemma get_set m g v f : get_field (set_field m g v) f = if field_eqb f g then v else get_field m f.
Proof. destruct g, f; reflexivity. Qed.
Lemma field_eqb_eq a b : field_eqb a b = true -> a = b.
Proof. destruct a, b; (reflexivity || discriminate). Qed.

Lemma store_applies c s : exec_actions (mem_of c) [store_of s] = (mem_of (apply_setting c (Some s)), []).
Proof. destruct s; reflexivity. Qed.

Lemma reads_status_unfold l :
  reads_status l = match line_request l with
                   | Some (v, me, _, _) => String.eqb v "2.0" && String.eqb me "get_status"
                   | None => false
                   end.
Proof. destruct l; reflexivity. Qed.

Lemma setting_not_status l s : spec_setting l = Some s -> reads_status l = false.
Proof.
  rewrite spec_setting_unfold, reads_status_unfold.
  destruct (line_request l) as [[[[v me] p] id]|]; [|reflexivity].
  destruct (String.eqb v "2.0"); [|reflexivity]. cbn [andb].
  destruct (String.eqb me "get_status") eqn:E; [|reflexivity].
  apply String.eqb_eq in E. subst me. change (setting_of "get_status" p) with (@None setting).
  destruct (params_ok "get_status" p); discriminate.
Qed.

Lemma response_config_independent c c' e l :
  reads_status l = false -> fst (dispatch c e l) = fst (dispatch c' e l).
Proof.
  rewrite reads_status_unfold, !dispatch_unfold.
  destruct (line_request l) as [[[[v me] p] id]|]; [|reflexivity].
  destruct (String.eqb v "2.0"); cbn [negb andb]; [|reflexivity]. intro H.
  rewrite !handle_method_sem.
  destruct (negb (is_base_method me)); [reflexivity|].
  destruct (negb (params_ok me p)); [reflexivity|].
  destruct (String.eqb me "get_stats"); [destruct (e_stats e); reflexivity|].
  unfold result_of. rewrite H. reflexivity.
Qed.

Theorem conc_sequential c e l :
  let '(m', loads) := exec_actions (mem_of c) (actions_of l) in
  snapshot_of m' = snd (dispatch c e l) /\ fst (dispatch c e l) = respond_conc e l loads.
Proof.
  destruct (dispatch_conforms c e l) as (_ & _ & _ & ->). unfold actions_of, respond_conc.
  destruct (spec_setting l) as [s|] eqn:Es.
  - rewrite store_applies. split; [apply snapshot_mem_of|].
    apply response_config_independent. exact (setting_not_status l s Es).
  - destruct (reads_status l) eqn:Er; cbn [exec_actions snapshot_loads]; (split; [apply snapshot_mem_of|]).
    + (* the six loads reassemble the atomics *)
      change (mem_of_loads _) with (mem_of c). rewrite snapshot_mem_of. reflexivity.
    + apply response_config_independent. exact Er.
Qed.

Lemma pop_thread_Forall (P : action -> Prop) thr : forall tid a thr',
  Forall (Forall P) thr -> pop_thread thr tid = Some (a, thr') -> P a /\ Forall (Forall P) thr'.
Proof.
  induction thr as [|p others IH]; intros tid a thr' Hf Hp; [discriminate|].
  inversion Hf as [|? ? Hp0 Hothers]. subst.
  destruct tid as [|k]; cbn [pop_thread] in Hp.
  - destruct p as [|a0 rest]; [discriminate|]. injection Hp as <- <-.
    inversion Hp0. subst. split; [assumption|]. constructor; assumption.
  - destruct (pop_thread others k) as [[a0 others']|] eqn:E; [|destruct p; discriminate].
    (* the clause [p :: others, S k] of [pop_thread] is compiled into a match on [p] with equal branches *)
    assert (Hp' : Some (a0, p :: others') = Some (a, thr')) by (destruct p; exact Hp).
    injection Hp' as <- <-. destruct (IH k a0 others' Hothers E) as [Ha Ho].
    split; [exact Ha|]. constructor; assumption.
Qed.

(** [Q m thr m' evs] speaks of the run from [m] with the threads [thr] *)
Lemma run_sched_ind (Q : cmem -> list (list action) -> cmem -> list event -> Prop) :
  (forall m thr, Q m thr m []) ->
  (forall m thr tid f v thr' m' evs, pop_thread thr tid = Some (AStore f v, thr') ->
     Q (set_field m f v) thr' m' evs -> Q m thr m' ((tid, AStore f v, v) :: evs)) ->
  (forall m thr tid f thr' m' evs, pop_thread thr tid = Some (ALoad f, thr') ->
     Q m thr' m' evs -> Q m thr m' ((tid, ALoad f, get_field m f) :: evs)) ->
  forall thr sched m, let '(m', evs) := run_sched m thr sched in Q m thr m' evs.
Proof.
  intros Hnil Hstore Hload thr sched. revert thr.
  induction sched as [|tid rest IH]; intros thr m; cbn [run_sched]; [apply Hnil|].
  destruct (pop_thread thr tid) as [[[f v|f] thr']|] eqn:Ep; [| |apply IH].
  - specialize (IH thr' (set_field m f v)). destruct (run_sched (set_field m f v) thr' rest).
    eapply Hstore; eassumption.
  - specialize (IH thr' m). destruct (run_sched m thr' rest). eapply Hload; eassumption.
Qed.

Section FieldInvariant.
  (** [R f v]: a property of the values of field [f] that the initial contents and every store
      have; once the section is closed it is the first argument of everything below *)
  Variable R : field -> Z -> Prop.
  Definition store_ok (a : action) : Prop := match a with AStore f v => R f v | ALoad _ => True end.
  Definition load_ok (ev : event) : Prop := match ev with (_, ALoad f, v) => R f v | _ => True end.
  Definition mem_ok (m : cmem) : Prop := forall f, R f (get_field m f).

  Lemma run_sched_keeps thr sched m :
    mem_ok m -> Forall (Forall store_ok) thr ->
    mem_ok (fst (run_sched m thr sched)) /\ Forall load_ok (snd (run_sched m thr sched)).
  Proof.
    enough (H : let '(m', evs) := run_sched m thr sched in
                mem_ok m -> Forall (Forall store_ok) thr -> mem_ok m' /\ Forall load_ok evs)
      by (destruct (run_sched m thr sched); exact H).
    (* [apply] does not find [Q] under the destructuring let *)
    refine (run_sched_ind (fun m thr m' evs => _) _ _ _ thr sched m); clear - R.
    - intros m thr Hm _. split; [exact Hm|constructor].
    - intros m thr tid f v thr' m' evs Ep IH Hm Hf.
      destruct (pop_thread_Forall store_ok thr tid _ thr' Hf Ep) as [Ha Hf'].
      destruct IH as [H1 H2]; [|exact Hf'|split; [exact H1|constructor; [exact I|exact H2]]].
      intro g. rewrite get_set. destruct (field_eqb g f) eqn:E; [|apply Hm].
      apply field_eqb_eq in E. subst g. exact Ha.
    - intros m thr tid f thr' m' evs Ep IH Hm Hf.
      destruct (pop_thread_Forall store_ok thr tid _ thr' Hf Ep) as [_ Hf']. destruct (IH Hm Hf') as [H1 H2].
      split; [exact H1|]. constructor; [apply Hm|exact H2].
  Qed.
End FieldInvariant.

Definition timeout_in_range (f : field) (v : Z) : Prop :=
  match f with FTimeout => 1000 <= v <= 60000 | _ => True end.

Lemma actions_of_ok l : Forall (store_ok timeout_in_range) (actions_of l).
Proof.
  unfold actions_of. destruct (spec_setting l) as [s|] eqn:Es.
  - constructor; [|constructor]. destruct s as [m|b|b|z]; cbn; trivial.
    exact (spec_setting_range l z Es).
  - destruct (reads_status l); [|constructor]. unfold snapshot_loads. repeat constructor.
Qed.

Lemma program_ok p : Forall (store_ok timeout_in_range) (List.concat (map actions_of p)).
Proof.
  induction p as [|l p IH]; [constructor|]. cbn [map List.concat]. apply Forall_app. split; [apply actions_of_ok|exact IH].
Qed.

Theorem conc_loads_were_stored thr sched m :
  let '(m', evs) := run_sched m thr sched in
  forall pre tid f v post, evs = (pre ++ (tid, ALoad f, v) :: post)%list ->
    v = last_store f pre (get_field m f).
Proof.
  refine (run_sched_ind (fun m thr m' evs => _) _ _ _ thr sched m); clear.
  - intros m thr [|] ? ? ? ? H; discriminate.
  - intros m thr tid0 f0 v0 thr' m' evs _ IH [|e0 pre] tid f v post Hs; [discriminate|].
    injection Hs as <- Hs. cbn [last_store]. rewrite <- get_set. eapply IH. exact Hs.
  - intros m thr tid0 f0 thr' m' evs _ IH [|e0 pre] tid f v post Hs.
    + injection Hs as _ <- <- _. reflexivity.
    + injection Hs as <- Hs. cbn [last_store]. eapply IH. exact Hs.
Qed.

Theorem conc_last_store_wins thr sched m f :
  let '(m', evs) := run_sched m thr sched in get_field m' f = last_store f evs (get_field m f).
Proof.
  refine (run_sched_ind (fun m thr m' evs => _) _ _ _ thr sched m); clear.
  - reflexivity.
  - intros m thr tid f0 v thr' m' evs _ IH. cbn [last_store]. rewrite <- get_set. exact IH.
  - intros m thr tid f0 thr' m' evs _ IH. exact IH.
Qed.

Lemma last_store_in f evs : forall d,
  last_store f evs d = d \/ exists tid x, In (tid, AStore f (last_store f evs d), x) evs.
Proof.
  induction evs as [|[[tid a] x] evs IH]; intro d; [left; reflexivity|].
  cbn [last_store]. destruct a as [f' v|f'].
  - (* a later store to [f] wins; otherwise it is this one, or none at all *)
    destruct (IH (if field_eqb f f' then v else d)) as [H|(t & x' & Hin)].
    + rewrite H. destruct (field_eqb f f') eqn:E; [|left; reflexivity].
      apply field_eqb_eq in E. subst f'. right. exists tid, x. left. reflexivity.
    + right. exists t, x'. right. exact Hin.
  - destruct (IH d) as [H|(t & x' & Hin)]; [left; exact H|].
    right. exists t, x'. right. exact Hin.
Qed.
