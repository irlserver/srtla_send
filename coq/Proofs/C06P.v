(** C06P.v — window range / direction / fast-recovery lemmas for Model/Conn.v. *)
From Srtla Require Import Base Constants Conn Run_Core ConnP CoreRunP Run_C06.
From Coq Require Import ZifyBool.

Definition wf_op (o : op) : Prop :=
  match o with OSetWindow _ w => 1000 <= w <= 60000 | _ => True end.
Definition wf_opb (o : op) : bool :=
  match o with OSetWindow _ w => (1000 <=? w) && (w <=? 60000) | _ => true end.

Definition Inv (c : link) : Prop := 1000 <= window c <= 60000 /\ ovf c = false.

Lemma consts :
  WINDOW_FLOOR = 1000 /\ WINDOW_CEIL = 60000 /\ WINDOW_DEFAULT = 20000 /\ WINDOW_DECR = 100 /\
  WINDOW_INCR = 30 /\ WINDOW_MULT = 1000 /\ FAST_RECOVERY_ENTER_WINDOW = 2000 /\ FAST_RECOVERY_DISABLE_WINDOW = 12000.
Proof. repeat split; reflexivity. Qed.

Lemma o_window_obs c : o_window (obs_link c) = window c. Proof. reflexivity. Qed.
Lemma o_fast_obs c : o_fast (obs_link c) = fast (cg c).
Proof. unfold o_fast, fld, obs_link. cbn. destruct (fast (cg c)); reflexivity. Qed.

Lemma i32_ovf_false x : -2000000000 <= x <= 2000000000 -> i32_ovf x = false.
Proof.
  intros H. unfold i32_ovf, i32_min, i32_max, two31.
  apply orb_false_intro; [apply Z.ltb_ge|apply Z.ltb_ge]; lia.
Qed.

Ltac kconst :=
  change WINDOW_INCR with 30 in *; change WINDOW_CEIL with 60000 in *; change WINDOW_FLOOR with 1000 in *;
  change WINDOW_DECR with 100 in *; change WINDOW_DEFAULT with 20000 in *;
  change FAST_RECOVERY_ENTER_WINDOW with 2000 in *; change FAST_RECOVERY_DISABLE_WINDOW with 12000 in *.

Definition up_rel (c c' : link) : Prop :=
  Inv c' /\ window c <= window c' /\
  (fast (cg c') = fast (cg c) \/ (fast (cg c) = true /\ fast (cg c') = false /\ 12000 <= window c')).
Definition down_rel (c c' : link) : Prop :=
  Inv c' /\ window c' <= window c /\
  (fast (cg c') = fast (cg c) \/ (fast (cg c) = false /\ fast (cg c') = true /\ window c' <= 2000)).

Lemma up_intro c c' w (o : bool) : Inv c -> window c <= w <= 60000 -> o = false ->
  window c' = w -> ovf c' = ovf c || o ->
  (fast (cg c') = fast (cg c) \/ fast (cg c') = (if fast (cg c) && (12000 <=? w) then false else fast (cg c))) ->
  up_rel c c'.
Proof.
  intros [Hw Ho] Hle -> Ew Eo Hf. unfold up_rel, Inv. rewrite Ew, Eo, Ho.
  split; [split; [split; [apply Z.le_trans with (window c); [apply Hw|apply Hle]|apply Hle]|reflexivity]|].
  split; [apply Hle|].
  destruct Hf as [Hf|Hf]; [left; exact Hf|]. rewrite Hf. clear -Hf.
  destruct (fast (cg c)); [|left; reflexivity]. destruct (Z.leb_spec 12000 w); auto.
Qed.

Lemma ack_classic_eff w inf : 1000 <= w <= 60000 ->
  w <= fst (ack_classic w inf) <= 60000 /\ snd (ack_classic w inf) = false.
Proof.
  intros Hw. unfold ack_classic. destruct (w <? _); cbn [fst snd]; kconst; [|lia].
  rewrite i32_ovf_false by lia. lia.
Qed.

Lemma recovery_link_eff c now v : Inv c -> up_rel c (perform_window_recovery c now v).
Proof.
  intros HI. pose proof HI as [Hw _]. unfold perform_window_recovery, recovery.
  destruct (negb (connected c) || (WINDOW_CEIL <=? window c)).
  { apply (up_intro c _ (window c) false); auto; lia. }
  cbn zeta. set (tsl := if negb (0 <? last_nak (cg c)) then u64_max else ssub now (last_nak (cg c))).
  destruct ((_ <? tsl) && (_ <? _)).
  2:{ apply (up_intro c _ (window c) false); auto; lia. }
  set (incr := if v then _ else _). kconst.
  (* the increment is an entry of a fixed table: 30 * 2, 30, 30 / 2 or 30 / 4 by the time since the last NAK,
     doubled in fast recovery, halved at high RTT velocity; the largest is 30 * 2 * 2 *)
  assert (Hr : 0 <= incr <= 120).
  { subst incr. destruct v, (fast (cg c)), (10000 <? tsl), (7000 <? tsl), (5000 <? tsl);
      vm_compute; split; intro; discriminate. }
  apply (up_intro c _ (Z.min (window c + incr) 60000) (i32_ovf (window c + incr))); auto; [lia|].
  apply i32_ovf_false. lia.
Qed.

Lemma ack_any_eff (c c' : link) (cl : bool) (inf : Z) : Inv c ->
  let r := if cl then let '(w, o) := ack_classic (window c) inf in (cg c, w, o)
           else ack_enhanced (cg c) (window c) inf in
  window c' = snd (fst r) -> cg c' = fst (fst r) -> ovf c' = ovf c || snd r -> up_rel c c'.
Proof.
  intros HI. pose proof HI as [Hw _]. cbn zeta. unfold ack_enhanced.
  destruct (ack_classic_eff (window c) inf Hw) as [H1 H2].
  destruct (ack_classic (window c) inf) as [w o]. cbn [fst snd] in H1, H2.
  destruct cl; cbn [fst snd]; intros Ew Eg Eo; apply (up_intro c c' w o HI H1 H2 Ew Eo); rewrite Eg;
    [left|right]; reflexivity.
Qed.

Lemma specific_eff c seq cl now : Inv c -> up_rel c (fst (handle_srtla_ack_specific c seq cl now)).
Proof.
  intros HI. unfold handle_srtla_ack_specific. destruct (log_mem seq (log c)); cbn zeta.
  - apply (ack_any_eff c _ cl (blen (log_remove seq (log c))) HI);
      destruct (if cl then _ else _) as [[g w] o]; reflexivity.
  - cbn [fst]. split; [exact HI|]. split; [lia|left; reflexivity].
Qed.

Lemma cc_ack_eff c cl inf : Inv c -> up_rel c (cc_ack c cl inf).
Proof.
  intros HI. apply (ack_any_eff c _ cl inf HI); unfold cc_ack;
    destruct (if cl then _ else _) as [[g w] o]; reflexivity.
Qed.

Lemma up_trans c c1 c2 : up_rel c c1 -> up_rel c1 c2 -> up_rel c c2.
Proof.
  intros (_ & L1 & F1) (I2 & L2 & F2). split; [exact I2|]. split; [lia|].
  destruct F1 as [F1|(A & B & C)], F2 as [F2|(A' & B' & C')];
    [left; congruence|right; repeat split; [congruence|assumption|assumption]
    |right; repeat split; [assumption|congruence|lia]|congruence].
Qed.

Lemma global_eff c : Inv c -> Inv (handle_srtla_ack_global c) /\
  window c <= window (handle_srtla_ack_global c) /\ fast (cg (handle_srtla_ack_global c)) = fast (cg c).
Proof.
  intros [Hw Ho]. unfold handle_srtla_ack_global, Inv.
  destruct (connected c && _); cbn [window ovf cg]; [|auto with zarith].
  kconst. rewrite i32_ovf_false by lia. rewrite Ho. repeat split; try lia; reflexivity.
Qed.

Lemma global_up c : Inv c -> up_rel c (handle_srtla_ack_global c).
Proof. intros HI. destruct (global_eff c HI) as (H1 & H2 & H3). split; [exact H1|]. split; [exact H2|left; exact H3]. Qed.

Lemma nak_any_eff c c' now : Inv c ->
  window c' = snd (fst (cong_nak (cg c) (window c) now)) -> cg c' = fst (fst (cong_nak (cg c) (window c) now)) ->
  ovf c' = ovf c || snd (cong_nak (cg c) (window c) now) -> down_rel c c'.
Proof.
  intros [Hw Ho].
  assert (Hm : 1000 <= Z.max (window c - 100) 1000 <= 60000 /\ Z.max (window c - 100) 1000 <= window c /\
               -2000000000 <= window c - 100 <= 2000000000) by lia.
  destruct (cong_nak_spec (cg c) (window c) now) as (_ & -> & -> & Ef). kconst.
  intros Ew Eg Eo. unfold down_rel, Inv. rewrite Ew, Eo, Eg, Ef, Ho, i32_ovf_false by apply Hm.
  split; [split; [apply Hm|reflexivity]|]. split; [apply Hm|].
  destruct (Z.leb_spec (Z.max (window c - 100) 1000) 2000); [|left; reflexivity].
  destruct (fast (cg c)); [left; reflexivity|right; auto].
Qed.

Lemma nak_eff c seq now : Inv c -> down_rel c (fst (handle_nak c seq now)).
Proof.
  intros HI. unfold handle_nak. destruct (log_mem seq (log c)); cbn zeta.
  - apply (nak_any_eff c _ now HI); destruct (cong_nak _ _ _) as [[g w] o]; reflexivity.
  - cbn [fst]. split; [exact HI|]. split; [lia|left; reflexivity].
Qed.

Lemma cc_nak_eff c now : Inv c -> down_rel c (cc_nak c now).
Proof.
  intros HI. apply (nak_any_eff c _ now HI); unfold cc_nak; destruct (cong_nak _ _ _) as [[g w] o]; reflexivity.
Qed.

Definition clauses_ok (o : op) (i : nat) (c c' : link) : Prop :=
  c06_link o i (obs_link c) (obs_link c') = 0%N.

Lemma b2 (b : bool) (P : Prop) : (b = true -> P) -> (if b then true else true) = true. Proof. destruct b; reflexivity. Qed.

Lemma clauses_intro o i c c' : Inv c' ->
  (is_teardown_of o i = true -> window c' = 20000) ->
  (is_nak_op o = true -> window c' <= window c) ->
  (is_ack_or_recovery_op o = true -> window c <= window c') ->
  (fast (cg c') = fast (cg c) \/
   (fast (cg c') = true /\ is_nak_op o = true /\ window c' <= 2000) \/
   (fast (cg c') = false /\ (12000 <= window c' \/ is_flag_reset_of o i = true))) ->
  Inv c' /\ clauses_ok o i c c'.
Proof.
  intros HI' H2 H3 H4 Hf. split; [exact HI'|]. destruct HI' as [[Ha Hb] _].
  unfold clauses_ok, c06_link. apply first_clause_all.
  repeat constructor; cbn [snd]; rewrite ?o_window_obs, ?o_fast_obs.
  - apply Z.leb_le in Ha, Hb. rewrite Ha, Hb. reflexivity.
  - destruct (is_teardown_of o i); [rewrite H2; reflexivity|reflexivity].
  - destruct (is_nak_op o); [apply Z.leb_le; auto|reflexivity].
  - destruct (is_ack_or_recovery_op o); [apply Z.leb_le; auto|reflexivity].
  - destruct Hf as [->|[(-> & -> & H)|[-> _]]]; destruct (fast (cg c)); try reflexivity. apply Z.leb_le, H.
  - destruct Hf as [->|[(-> & _)|[-> H]]]; destruct (fast (cg c)); try reflexivity.
    destruct H as [H| ->]; [apply Z.leb_le in H; rewrite H; reflexivity|apply orb_true_r].
Qed.

Lemma stay_ok o i c c' : Inv c -> window c' = window c -> fast (cg c') = fast (cg c) -> ovf c' = ovf c ->
  is_teardown_of o i = false -> Inv c' /\ clauses_ok o i c c'.
Proof.
  intros [Hw Ho] Ew Ef Eo Ht. apply clauses_intro; rewrite ?Ew;
    [unfold Inv; rewrite Ew, Eo; auto|congruence|intros _; apply Z.le_refl|intros _; apply Z.le_refl|left; exact Ef].
Qed.

Lemma up_ok o i c c' : up_rel c c' -> is_teardown_of o i = false -> is_nak_op o = false ->
  Inv c' /\ clauses_ok o i c c'.
Proof.
  intros (HI' & Hle & Hf) Ht Hn. apply clauses_intro; [exact HI'|congruence|congruence|auto|].
  destruct Hf as [Hf|(_ & F & H)]; [left; exact Hf|right; right; auto].
Qed.

Lemma down_ok o i c c' : down_rel c c' -> is_teardown_of o i = false -> is_nak_op o = true ->
  is_ack_or_recovery_op o = false -> Inv c' /\ clauses_ok o i c c'.
Proof.
  intros (HI' & Hle & Hf) Ht Hn Ha. apply clauses_intro; [exact HI'|congruence|auto|congruence|].
  destruct Hf as [Hf|(_ & F & H)]; [left; exact Hf|right; left; auto].
Qed.

Lemma set_ok o i c c' : Inv c' -> (is_teardown_of o i = true -> window c' = 20000) ->
  is_nak_op o = false -> is_ack_or_recovery_op o = false ->
  (fast (cg c') = fast (cg c) \/ (fast (cg c') = false /\ is_flag_reset_of o i = true)) ->
  Inv c' /\ clauses_ok o i c c'.
Proof.
  intros HI' Ht Hn Ha Hf. apply clauses_intro; [exact HI'|exact Ht|congruence|congruence|].
  destruct Hf as [Hf|[F R]]; [left; exact Hf|right; right; auto].
Qed.

Lemma neq_teardown o i k : (match o with OMarkRecovery j | OResetReconnect j => j = k | _ => False end) -> i <> k -> is_teardown_of o i = false.
Proof. destruct o; cbn; try tauto; intros -> H; apply Nat.eqb_neq; auto. Qed.

Lemma at_idx_ok {o k i c c' fc} : at_idx k i c c' fc -> Inv c -> (i <> k -> is_teardown_of o i = false) ->
  Inv fc /\ clauses_ok o k c fc -> Inv c' /\ clauses_ok o i c c'.
Proof. intros [[-> ->]|[E ->]] HI Hn Hf; [exact Hf|apply stay_ok; auto]. Qed.

Lemma reset_inv c lr g : Inv c -> Inv (reset_core c lr g).
Proof. intros [_ Ho]. split; [cbn [window reset_core]; kconst; lia|exact Ho]. Qed.

Theorem c06_link_step o i c c' : wf_op o -> ltrans o i c c' -> Inv c ->
  Inv c' /\ clauses_ok o i c c'.
Proof.
  intros Hwf Ht HI. destruct o; cbn [ltrans] in Ht.
  - (* ORegister *) apply (at_idx_ok Ht HI); [reflexivity|]. apply stay_ok; auto.
  - (* OTrack *) subst c'. apply stay_ok; auto.
  - subst c'. apply stay_ok; auto; unfold handle_srt_ack; destruct (a <=? hwm c); reflexivity.
  - (* OSrtlaAck *) destruct Ht as [->|[->| ->]].
    + apply stay_ok; auto.
    + apply up_ok; auto using global_up.
    + apply up_ok; auto. pose proof (specific_eff c seq classic now HI) as H1.
      exact (up_trans _ _ _ H1 (global_up _ (proj1 H1))).
  - destruct Ht as [->| ->]; [apply stay_ok; auto|apply down_ok; auto using nak_eff].
  - apply (at_idx_ok Ht HI); [reflexivity|].
    apply up_ok; auto using recovery_link_eff.
  - apply (at_idx_ok Ht HI); [reflexivity|]. apply up_ok; auto using cc_ack_eff.
  - apply (at_idx_ok Ht HI); [reflexivity|]. apply down_ok; auto using cc_nak_eff.
  - apply (at_idx_ok Ht HI); [reflexivity|]. apply up_ok; auto using global_up.
  - apply (at_idx_ok Ht HI); [exact (neq_teardown (OMarkRecovery i0) i i0 eq_refl)|].
    apply set_ok; auto. apply reset_inv, HI.
  - apply (at_idx_ok Ht HI); [exact (neq_teardown (OResetReconnect i0) i i0 eq_refl)|].
    apply set_ok; auto; [apply reset_inv, HI|right; split; [reflexivity|apply Nat.eqb_refl]].
  - (* OReg3 *) apply (at_idx_ok Ht HI); [reflexivity|].
    apply set_ok; try discriminate; auto; [|right; split; [reflexivity|apply Nat.eqb_refl]].
    destruct HI as [_ Ho]. split; [cbn [window reg3_clear]; kconst; lia|exact Ho].
  - (* OSetConn *) apply (at_idx_ok Ht HI); [reflexivity|]. apply stay_ok; auto.
  - (* OSetWindow *) apply (at_idx_ok Ht HI); [reflexivity|].
    apply set_ok; try discriminate; auto. destruct HI as [_ Ho]. split; [exact Hwf|exact Ho].
  - (* ORemoveConn *) subst c'. apply stay_ok; auto.
Qed.

Definition SInv (s : state) : Prop := Forall Inv (links s).

Lemma step_inv_and_clauses s o : wf_op o -> SInv s ->
  SInv (step s o) /\ c06_links o 0 (obs_state s) (obs_state (step s o)) = 0%N.
Proof.
  intros Hwf HI. pose proof (step_ltrans s o) as HT. unfold SInv, obs_state in *.
  revert HI HT. generalize (links (step s o)). generalize (links s). generalize 0%nat.
  intros j l l' HI HT. induction HT as [j|j x y l l' Hxy HT IH].
  - split; [constructor|reflexivity].
  - inversion HI as [|? ? Hx Hl]; subst.
    destruct (c06_link_step o j x y Hwf Hxy Hx) as [Hy Hc].
    destruct (IH Hl) as [Hl' Hcs]. split; [constructor; assumption|].
    cbn [map c06_links]. unfold clauses_ok in Hc. rewrite Hc. cbn. exact Hcs.
Qed.

Lemma init_inv ids : SInv (init ids).
Proof.
  unfold SInv, init. cbn. induction ids; cbn; constructor; auto.
  unfold Inv, link0. cbn [window ovf]. kconst. split; [lia|reflexivity].
Qed.

Theorem reachable_inv ids ops : Forall wf_op ops -> SInv (run_from (init ids) ops).
Proof.
  intros H. apply (run_inv SInv wf_op); [intros s o Ho Hs; apply (step_inv_and_clauses s o Ho Hs)|exact H|apply init_inv].
Qed.

Theorem monitor_holds ids ops : Forall wf_op ops -> check_with mon_C06 (model_case ids ops) = 0%N.
Proof.
  intros Hwf. apply (check_with_model mon_C06 (fun _ s => SInv s)).
  - cbn [mon_C06 m_init snd]. rewrite forallb_obs_init; reflexivity.
  - apply init_inv.
  - intros m s o HJ Hin. cbn [mon_C06 m_step fst snd].
    assert (Ho : wf_op o) by (rewrite Forall_forall in Hwf; auto).
    destruct (step_inv_and_clauses s o Ho HJ) as [H1 H2]. split; assumption.
Qed.
