(** RttP.v — lemmas about Model/Rtt.v: the Rust f64 primitives used by the smoothed-RTT
    read-out, the f64->u32 cast range, the keepalive-timestamp decoder against its
    declarative layout, and the sampling rule of handle_keepalive_response. *)
From Coq Require Import Floats ZifyBool.
From Srtla Require Import Base Constants FConstants Wire WireSpec WireP BaseP Rtt.
Local Open Scope Z_scope.

Lemma f_max0_ok x : f_is_nan (f_max0 x) = false /\ (0 <=? f_max0 x)%float = true.
Proof.
  unfold f_max0, f_is_nan. destruct (PrimFloat.is_nan x) eqn:En; [split; reflexivity|].
  destruct (x <? 0)%float eqn:El; [split; reflexivity|].
  split; [exact En|].
  unfold PrimFloat.is_nan in En. rewrite FloatAxioms.eqb_spec in En. rewrite FloatAxioms.ltb_spec in El. rewrite FloatAxioms.leb_spec.
  change (Prim2SF 0) with (S754_zero false) in *.
  destruct (Prim2SF x) as [s|s| |s m e]; cbn in *; try reflexivity; try discriminate.
  - destruct s; [discriminate|reflexivity].
  - destruct s; [discriminate|reflexivity].
Qed.

Lemma f_max0_finite x : f_is_inf x = false -> f_is_inf (f_max0 x) = false.
Proof.
  unfold f_max0. intros H. destruct (f_is_nan x); [reflexivity|].
  destruct (x <? 0)%float; [reflexivity|exact H].
Qed.

Lemma f_as_u32_range x : 0 <= f_as_u32 x < two32.
Proof.
  unfold f_as_u32, u32_max, clamp, two32.
  destruct (Prim2SF x) as [s|s| |s m e]; try lia; destruct s; lia.
Qed.

Lemma bytes_okb_ok b : bytes_okb b = true -> bytes_ok b.
Proof.
  unfold bytes_okb, bytes_ok. rewrite forallb_forall, Forall_forall.
  intros H x Hx. specialize (H x Hx). unfold is_byte in H. lia.
Qed.

Lemma ka_ts_spec b : bytes_ok b -> ka_ts b = spec_ka_ts b.
Proof.
  intros Hb. unfold ka_ts, spec_ka_ts, extract_keepalive_timestamp.
  rewrite Z.ltb_antisym, get_packet_type_spec.
  destruct (10 <=? blen b) eqn:E; cbn [negb andb bind]; [|reflexivity].
  destruct (spec_type b) as [t|]; [|reflexivity]. cbn [ozeqb opt_eqb].
  destruct (t =? SRTLA_TYPE_KEEPALIVE); [|reflexivity].
  destruct b as [|b0 [|b1 [|n0 [|n1 [|n2 [|n3 [|n4 [|n5 [|n6 [|n7 rest]]]]]]]]]];
    try (cbv in E; discriminate).
  unfold bytes_ok in Hb.
  repeat match goal with H : Forall _ (_ :: _) |- _ => inversion H; clear H; subst end.
  assert (Hb8 : bytes_ok [n0; n1; n2; n3; n4; n5; n6; n7]) by (unfold bytes_ok; repeat (constructor; [assumption|]); constructor).
  pose proof (ts8 n0 n1 n2 n3 n4 n5 n6 n7 [b0; b1] rest Hb8 eq_refl) as Ht.
  cbn [app] in Ht. rewrite Ht. cbn [bind skipn firstn be_fold].
  f_equal. unfold two64. rewrite Z.mod_small; lia.
Qed.

Lemma spec_ka_ts_some b ts : spec_ka_ts b = Some ts ->
  spec_type b = Some SRTLA_TYPE_KEEPALIVE /\ 10 <= blen b.
Proof.
  unfold spec_ka_ts. destruct (10 <=? blen b) eqn:E; [|discriminate].
  destruct (spec_type b) as [ty|]; [|discriminate]. cbn [andb ozeqb opt_eqb].
  destruct (ty =? SRTLA_TYPE_KEEPALIVE) eqn:Et; [|discriminate]. intros _. split; [f_equal|]; lia.
Qed.

(** the part of the tracker a sample moves *)
Definition rtt_core (r : rtt) : Z * kalman := (r_last_meas r, r_k r).

Lemma hkr_cases r b now :
  let '(r', s) := handle_keepalive_response r b now in
  (s = None /\ rtt_core r' = rtt_core r /\ (r_waiting r = true -> r_waiting r' = false) /\
   (r_waiting r = false -> r' = r))
  \/ (exists ts, s = Some (ssub now ts) /\ r_waiting r = true /\ ka_ts b = Some ts /\
        0 < now - ts <= KA_RTT_CAP_MS /\
        r' = set_waiting (update_estimate r (ssub now ts) now) false).
Proof.
  unfold handle_keepalive_response. destruct (r_waiting r) eqn:Ew; cbn [negb].
  2:{ left. repeat split; auto; try discriminate; try congruence. }
  destruct (ka_ts b) as [ts|] eqn:Ets.
  2:{ left. repeat split; auto; try discriminate; try congruence. }
  destruct ((0 <? ssub now ts) && (ssub now ts <=? KA_RTT_CAP_MS)) eqn:Er.
  - right. exists ts. unfold ssub in *. repeat split; auto; lia.
  - left. repeat split; auto; try discriminate; try congruence.
Qed.

Lemma update_estimate_meas r v now : r_last_meas (update_estimate r v now) = now.
Proof. unfold update_estimate. destruct (negb (kinit (r_k r))); reflexivity. Qed.
