(** Proofs/C19P.v — the model's own traces satisfy the C19 monitor; the analysis of a
    file in terms of [spec_ips]; the oracle premise can always be met. *)
From Srtla Require Import Base BaseP ReloadP Run_C19.

Lemma link_eqb_refl : forall c, link_eqb c c = true.
Proof. intro c. unfold link_eqb. rewrite !Z.eqb_refl, zlist_eqb_refl. reflexivity. Qed.
Lemma links_eqb_refl : forall l, links_eqb l l = true.
Proof. apply list_eqb_refl. apply link_eqb_refl. Qed.

Lemma io_same_refl : forall m, NoDup (map fst m) -> io_same m m = true.
Proof.
  intros m H. unfold io_same. rewrite Nat.eqb_refl. simpl. apply forallb_forall.
  intros [k v] Hin. simpl. rewrite (io_get_first m k v H Hin). simpl. apply Z.eqb_refl.
Qed.
Lemma set_same_refl : forall l, set_same l l = true.
Proof.
  intro l. unfold set_same. rewrite Nat.eqb_refl. simpl. apply forallb_forall.
  intros x Hx. apply mem_In. exact Hx.
Qed.
Lemma snap_same : forall probes now s,
  Inv s -> snap_eqb (snapshot probes now s) (snapshot probes now s) = true.
Proof.
  intros probes now s HI. unfold snap_eqb, snapshot. cbn [s_links s_io s_sel s_pend s_trk s_alive].
  rewrite links_eqb_refl, (io_same_refl _ (inv_io_keys s HI)), ozeqb_refl, set_same_refl.
  rewrite (list_eqb_refl ozeqb ozeqb_refl), (opt_eqb_refl zlist_eqb zlist_eqb_refl). reflexivity.
Qed.

Lemma nodupb_true : forall l, NoDup l -> nodupb l = true.
Proof.
  induction l as [|x t IH]; intro H; simpl; [reflexivity|]. inversion H; subst.
  rewrite IH by assumption. apply mem_nIn in H2. rewrite H2. reflexivity.
Qed.

Lemma trk_clause : forall gone probes (f g : Z -> option Z),
  (forall q, g q = match f q with Some j => if mem j gone then None else Some j | None => None end) ->
  forallb2 (trk_pair_ok gone) (map f probes) (map g probes) = true.
Proof.
  intros gone probes f g H. induction probes as [|q t IH]; simpl; [reflexivity|].
  rewrite IH, andb_true_r. rewrite H. unfold trk_pair_ok.
  destruct (f q) as [j|]; [|reflexivity].
  destruct (mem j gone); simpl; [reflexivity|apply Z.eqb_refl].
Qed.

Lemma chk_ok : forall b code rest, b = true -> rest = 0%N -> chk b code rest = 0%N.
Proof. intros b code rest -> ->. reflexivity. Qed.

(** [s2] stands for the state after the apply up to the fields the snapshot does not read
    (the tick also clears [pend]). *)
Lemma mon_apply_ok : forall probes now D fail fresh s s2,
  Inv s -> fresh_ok s (needed_ips (map l_lab (conns s)) D) fail fresh ->
  conns s2 = conns (fst (apply_changes D fail fresh s)) ->
  io s2 = io (fst (apply_changes D fail fresh s)) ->
  trk s2 = trk (fst (apply_changes D fail fresh s)) ->
  sel s2 = sel (fst (apply_changes D fail fresh s)) ->
  mon_apply D fail (snapshot probes now s) (snapshot probes now s2) = 0%N.
Proof.
  intros probes now D fail fresh s s2 HI Hf E1 E2 E3 E4.
  unfold mon_apply, snapshot. cbn [s_links s_io s_sel s_trk]. cbv zeta.
  rewrite E1, E2, E3, E4. fold (kept s D). fold (removed_ids s D). rewrite apply_conns.
  rewrite firstn_app, skipn_app, Nat.sub_diag, firstn_all, skipn_all, app_nil_r. cbn [firstn skipn app].
  pose proof (added_labs_In D fail fresh s Hf) as Hnew.
  repeat apply chk_ok; [..|reflexivity].
  - apply links_eqb_refl.
  - apply forallb_forall. intros c Hc. rewrite (apply_io_kept D fail fresh s HI Hf c Hc). apply ozeqb_refl.
  - apply forallb_forall. intros id Hid. rewrite (apply_io_removed D fail fresh s Hf id Hid).
    pose proof (apply_removed_gone D fail fresh s HI Hf id Hid) as H. unfold ids in H.
    rewrite apply_conns in H. apply mem_nIn in H. rewrite H. reflexivity.
  - apply trk_clause. intro q. apply apply_trk_get, HI.
  - rewrite !andb_true_iff, !forallb_forall. split; [split|].
    + apply nodupb_true, added_labs_NoDup, Hf.
    + intros c Hc. apply (in_map l_lab), Hnew in Hc.
      rewrite andb_true_iff, negb_true_iff, mem_In, mem_nIn. tauto.
    + intros a Ha. rewrite !orb_true_iff, !mem_In, Hnew.
      destruct (in_dec Z.eq_dec a (map l_lab (conns s))), (in_dec Z.eq_dec a fail); tauto.
  - rewrite apply_sel. destruct (removed_ids s D); reflexivity.
Qed.

(** [spec_ips o t] unfolds to [spec_lines o (lines t)] *)
Lemma analyze_refuse : forall o t, spec_ips o t = [] -> exists r, analyze_text o t = ARefuse r.
Proof.
  intros o t H. pose proof (analyze_text_spec o t) as A.
  change (spec_lines o (lines t)) with (spec_ips o t) in A. rewrite H in A. exact A.
Qed.
Lemma analyze_apply : forall o t,
  spec_ips o t <> [] -> exists fi, analyze_text o t = AApply (spec_ips o t) fi.
Proof.
  intros o t H. pose proof (analyze_text_spec o t) as A.
  change (spec_lines o (lines t)) with (spec_ips o t) in A.
  destruct (spec_ips o t); [congruence|exact A].
Qed.

Lemma step_fst : forall probes s o, fst (step probes s o) = fst (fst (next s o)).
Proof. intros. unfold step. destruct (next s o) as [[s' r] att]. reflexivity. Qed.

Lemma step_ok : forall probes s o,
  Inv s -> wf_op s o -> mon_step o (snd (step probes s o)) = 0%N.
Proof.
  intros probes s o HI Hwf.
  destruct o as [ips fail fresh now|file oc now|fail fresh now|ips fail fresh now
                |fwd seq now sts|i st|i st]; unfold step; cbn [next op_now wf_op] in *.
  - destruct (create ips fail fresh (io s) (next_tok s)) as [[added m'] tok']. reflexivity.
  - cbn [snd mon_step]. unfold mon_sighup.
    destruct file as [t|]; cbn [analyze_file]; [|rewrite snap_same by exact HI; reflexivity].
    destruct (spec_ips oc t) as [|a l] eqn:Es.
    + destruct (analyze_refuse oc t Es) as [r ->]. rewrite snap_same by exact HI. reflexivity.
    + destruct (analyze_apply oc t) as [fi ->]; [congruence|]. rewrite Es.
      unfold chk. rewrite zlist_eqb_refl. cbn [snapshot s_pend pend opt_eqb].
      rewrite zlist_eqb_refl. reflexivity.
  - destruct (pend s) as [D|] eqn:EP.
    + pose proof (mon_apply_ok probes now D fail fresh s) as H.
      destruct (apply_changes D fail fresh s) as [s' att].
      cbn [snd mon_step]. unfold mon_tick. cbn [snapshot s_pend]. rewrite EP.
      apply H; try assumption; reflexivity.
    + cbn [snd mon_step]. unfold mon_tick. cbn [snapshot s_pend]. rewrite EP.
      fold (snapshot probes now s). rewrite snap_same by exact HI. reflexivity.
  - pose proof (mon_apply_ok probes now ips fail fresh s) as H.
    destruct (apply_changes ips fail fresh s) as [s' att].
    apply H; try assumption; reflexivity.
  - reflexivity.
  - reflexivity.
  - reflexivity.
Qed.

Lemma run_ok : forall ops probes s,
  Inv s -> wf_ops s ops -> ok_C19 (run_from probes s ops) = true.
Proof.
  induction ops as [|o t IH]; intros probes s HI Hwf; [reflexivity|].
  cbn [wf_ops] in Hwf. destruct Hwf as [Hw1 Hw2].
  cbn [run_from]. pose proof (step_ok probes s o HI Hw1) as Hs.
  pose proof (step_fst probes s o) as Hf.
  destruct (step probes s o) as [s' ob]. cbn [fst snd] in *.
  unfold ok_C19. cbn [forallb fst snd]. rewrite Hs. cbn [N.eqb andb].
  subst s'. apply IH; [apply next_inv; assumption|exact Hw2].
Qed.

Fixpoint seqZ (a : Z) (n : nat) : list Z :=
  match n with O => [] | S k => a :: seqZ (a + 1) k end.
Lemma seqZ_ge : forall n a x, In x (seqZ a n) -> a <= x.
Proof.
  induction n as [|n IH]; intros a x H; simpl in H; [destruct H|].
  destruct H as [H|H]; [lia|]. apply IH in H. lia.
Qed.
Lemma seqZ_NoDup : forall n a, NoDup (seqZ a n).
Proof.
  induction n as [|n IH]; intro a; simpl; constructor; [|apply IH].
  intro H. apply seqZ_ge in H. lia.
Qed.
Lemma seqZ_length : forall n a, length (seqZ a n) = n.
Proof. induction n as [|n IH]; intro a; simpl; [reflexivity|]. rewrite IH. reflexivity. Qed.
Definition zmax (l : list Z) : Z := fold_right Z.max 0 l.
Lemma zmax_ge : forall l x, In x l -> x <= zmax l.
Proof.
  induction l as [|y t IH]; intros x H; simpl in *; [destruct H|].
  destruct H as [H|H]; [lia|]. apply IH in H. lia.
Qed.

Lemma fresh_exists : forall s attempt fail, exists fresh, fresh_ok s attempt fail fresh.
Proof.
  intros s attempt fail.
  exists (map (fun id => (id, @nil Z)) (seqZ (zmax (ids s) + 1) (length attempt))).
  unfold fresh_ok. rewrite map_map. simpl. rewrite map_id. split; [apply seqZ_NoDup|]. split.
  - intros id Hin Hids. apply seqZ_ge in Hin. apply zmax_ge in Hids. lia.
  - rewrite map_length, seqZ_length. unfold addr.
    pose proof (@filter_length_split Z (fun ip => negb (mem ip fail)) attempt) as H. cbv beta in H. lia.
Qed.
