(** ForwardP.v — the forwarding-slice model (Model/Forward.v): the send loop ([send_all_spec]);
    what one op does to one link, described once ([qstep], [lstep], [step_link_spec]); the ghost-log
    invariant, conservation, FIFO ([subseq]), bounded hold, probe rate, loss and wire statements are
    read off that description and lifted to op lists. *)
From Coq Require Import ZifyBool Permutation.
From Srtla Require Import Base Constants Forward BaseP.

Lemma send_size_pos : 0 < BATCH_SEND_SIZE.
Proof. reflexivity. Qed.
Lemma probe_n_pos : 0 < STALL_PROBE_ONE_IN_N.
Proof. reflexivity. Qed.
Lemma batch_size_le : forall r, batch_size r <= BATCH_SEND_SIZE.
Proof. destruct r; vm_compute; intro H; discriminate H. Qed.
Lemma batch_size_pos : forall r, 0 < batch_size r.
Proof. destruct r; reflexivity. Qed.

(** with fuel for one datagram per round the loop ends by its own test *)
Lemma send_all_spec : forall fuel total sent orc n ok,
  0 <= sent <= total -> (Z.to_nat (total - sent) < fuel)%nat ->
  send_all fuel total sent orc = (n, ok) ->
  sent <= n <= total /\ if ok then n = total else n < total /\ has_fail orc = true.
Proof.
  induction fuel as [|f IH]; intros total sent orc n ok Hs Hf H; [lia|]. cbn [send_all] in H.
  destruct (sent <? total) eqn:Hlt; [|inversion H; subst; cbn; lia].
  pose proof send_size_pos as Hp.
  set (take := Z.min (total - sent) BATCH_SEND_SIZE) in *.
  assert (Ht : 1 <= take <= total - sent) by (unfold take; lia).
  destruct orc as [|[x|] rest]; cbn [sock_send_batch tl] in H; unfold clamp in H.
  - (* exhausted oracle: everything offered is accepted *)
    replace (Z.min take (Z.max 0 take)) with take in H by lia.
    destruct (take =? 0) eqn:Hz; [lia|].
    apply IH in H; [|lia|lia]. destruct H as [H1 H2]. split; [lia|exact H2].
  - destruct (Z.min take (Z.max 0 x) =? 0) eqn:Hz.
    + inversion H; subst. cbn. lia.
    + apply IH in H; [|lia|lia]. destruct H as [H1 H2]. split; [lia|].
      destruct ok; [exact H2|]. destruct H2 as [H2 H3]. split; [exact H2|].
      cbn [has_fail existsb]. fold (has_fail rest). rewrite H3. apply orb_true_r.
  - inversion H; subst. cbn. lia.
Qed.

(** trap: in every file that imports this one the bare name [positive] means this predicate;
    Coq's type is then [BinNums.positive] *)
Definition positive (r : sres) : Prop := match r with SOk n => 0 < n | SErr => False end.

Lemma positive_no_fail : forall orc, Forall positive orc -> has_fail orc = false.
Proof.
  induction 1 as [|[n|] t Hr _ IH]; [reflexivity| |contradiction].
  cbn in *. fold (has_fail t). rewrite IH. lia.
Qed.

Lemma send_all_positive : forall fuel total sent orc,
  Forall positive orc -> 0 <= sent <= total -> (Z.to_nat (total - sent) < fuel)%nat ->
  send_all fuel total sent orc = (total, true).
Proof.
  intros fuel total sent orc Hp Hs Hf. destruct (send_all fuel total sent orc) as [n ok] eqn:E.
  apply send_all_spec in E; [|assumption|assumption].
  rewrite (positive_no_fail _ Hp) in E. destruct ok; [f_equal; lia|]. destruct E as (_ & _ & E). discriminate.
Qed.

Lemma send_all_fail_first : forall f total sent r rest,
  sent < total -> has_fail [r] = true -> send_all (S f) total sent (r :: rest) = (sent, false).
Proof.
  intros f total sent r rest H Hr. cbn [send_all]. destruct (sent <? total) eqn:Hlt; [|lia].
  destruct r as [n|]; [|reflexivity]. cbn in Hr. cbn [sock_send_batch]. pose proof send_size_pos.
  unfold clamp. replace (Z.min _ (Z.max 0 n)) with 0 by lia. reflexivity.
Qed.

Lemma send_all_zero_is_error : forall f total sent rest,
  sent < total -> send_all (S f) total sent (SOk 0 :: rest) = (sent, false).
Proof. intros f total sent rest H. apply send_all_fail_first; [exact H|reflexivity]. Qed.

Lemma send_all_err_is_error : forall f total sent rest,
  sent < total -> send_all (S f) total sent (SErr :: rest) = (sent, false).
Proof. intros f total sent rest H. apply send_all_fail_first; [exact H|reflexivity]. Qed.

(** What an op may do to the queue and the ghost logs of a link: [new] (at most one copy)
    arrives; of the queue so extended the prefix [sent] reaches the socket, the next part
    [lost] is dropped, the rest stays queued. *)
Record qstep (l : link) (new sent lost : list qent) (l' : link) : Prop := {
  qs_io : has_io l' = has_io l;
  qs_acc : acc l' = acc l ++ map cpy_of new;
  qs_fates : fates l' = fates l ++ map (tag Sent) sent ++ map (tag Lost) lost;
  qs_queue : queue l ++ new = sent ++ lost ++ queue l' }.
Arguments qs_io {l new sent lost l'}.
Arguments qs_acc {l new sent lost l'}.
Arguments qs_fates {l new sent lost l'}.
Arguments qs_queue {l new sent lost l'}.

Lemma wire_tag : forall f q,
  map fst (filter is_sent (map (tag f) q)) = match f with Sent => map cpy_of q | Lost => [] end.
Proof. induction q as [|e t IH]; destruct f; cbn in *; [reflexivity|reflexivity|f_equal; exact IH|exact IH]. Qed.
Lemma lost_tag : forall f q,
  map fst (filter (fun x => negb (is_sent x)) (map (tag f) q))
  = match f with Sent => [] | Lost => map cpy_of q end.
Proof. induction q as [|e t IH]; destruct f; cbn in *; [reflexivity|reflexivity|exact IH|f_equal; exact IH]. Qed.

Lemma qstep_wire {l new sent lost l'} :
  qstep l new sent lost l' -> wire_of l' = wire_of l ++ map cpy_of sent.
Proof.
  intros H. unfold wire_of.
  rewrite (qs_fates H), !filter_app, !map_app, !wire_tag, app_nil_r. reflexivity.
Qed.
Lemma qstep_lost {l new sent lost l'} :
  qstep l new sent lost l' -> lost_of l' = lost_of l ++ map cpy_of lost.
Proof.
  intros H. unfold lost_of.
  rewrite (qs_fates H), !filter_app, !map_app, !lost_tag. reflexivity.
Qed.

Lemma qstep_new {l new sent lost l' x} :
  qstep l new sent lost l' -> acc l' = acc l ++ x -> map cpy_of new = x.
Proof. intros H E. rewrite (qs_acc H) in E. exact (app_inv_head _ _ _ E). Qed.
Lemma qstep_nil {l new sent lost l'} : qstep l new sent lost l' -> acc l' = acc l -> new = [].
Proof. intros H E. rewrite <- (app_nil_r (acc l)) in E. exact (map_eq_nil _ _ (qstep_new H E)). Qed.

Definition log_ok (l : link) : Prop := acc l = map fst (fates l) ++ map cpy_of (queue l).
Definition ctr_ok (l : link) : Prop := 0 <= ctr l < STALL_PROBE_ONE_IN_N.
Definition hold_ok (l : link) : Prop := has_io l = true -> blen (queue l) < BATCH_SEND_SIZE.
Definition inv (l : link) : Prop := log_ok l /\ ctr_ok l /\ hold_ok l.

Lemma qstep_log : forall l new sent lost l', qstep l new sent lost l' -> log_ok l -> log_ok l'.
Proof.
  unfold log_ok. intros l new sent lost l' [_ Ha Hf Hq] H.
  rewrite Ha, Hf, H, <- app_assoc, <- map_app, Hq, !map_app, !map_map, <- !app_assoc. reflexivity.
Qed.

Lemma empty_hold : forall l, queue l = [] -> hold_ok l.
Proof. intros l H _. rewrite H. exact send_size_pos. Qed.

Lemma flush_link_spec : forall now orc l l2 out ok,
  flush_link now orc l = (l2, out, ok) ->
  exists sent lost, qstep l [] sent lost l2 /\ queue l2 = [] /\ out = map q_d sent /\ ctr l2 = ctr l /\
    if ok then lost = [] else has_fail orc = true.
Proof.
  unfold flush_link. intros now orc l l2 out ok H.
  destruct (send_all _ _ 0 orc) as [n b] eqn:Hs. inversion H; subst; clear H.
  apply send_all_spec in Hs; [|pose proof (blen_nonneg (queue l)); lia|lia].
  exists (firstn (Z.to_nat n) (queue l)), (skipn (Z.to_nat n) (queue l)).
  split; [split; cbn; rewrite ?app_nil_r, ?firstn_skipn; reflexivity|].
  repeat split. destruct ok; [|tauto].
  apply skipn_all2. unfold blen in Hs. lia.
Qed.

Lemma reset_link_spec : forall k l,
  has_io (reset_link k l) = has_io l /\ acc (reset_link k l) = acc l /\
  fates (reset_link k l) = fates l ++ map (tag Lost) (queue l) /\ queue (reset_link k l) = [] /\
  (ctr (reset_link k l) = ctr l \/ ctr (reset_link k l) = 0).
Proof. intros k l. destruct k; cbn; auto 6. Qed.

Lemma qaf_spec : forall now e orc l l' w,
  queue_and_flush now e orc l = (l', w) ->
  exists sent lost, qstep l [e] sent lost l' /\ w = map q_d sent /\
    (lost = [] \/ has_fail orc = true /\ queue l' = []) /\
    (ctr l' = ctr l \/ ctr l' = 0) /\ hold_ok l'.
Proof.
  unfold queue_and_flush. intros now e orc l l' w H.
  destruct (needs_flush (enqueue e l) && has_io (enqueue e l)) eqn:Hc.
  - destruct (flush_link now orc (enqueue e l)) as [[l2 out] ok] eqn:Hf.
    apply flush_link_spec in Hf. destruct Hf as (sent & lost & [Hio Ha Hfa Hq] & Hq2 & Hout & Hctr & Hok).
    cbn [enqueue upd_q has_io acc fates queue ctr map] in *. rewrite app_nil_r in *.
    inversion H; subst l' w; clear H. exists sent, lost. pose proof Hq as Hq'. rewrite Hq2, app_nil_r in Hq'.
    destruct ok.
    + repeat split; auto using empty_hold.
    + (* the failed send marks the link for recovery: its queue is empty already *)
      repeat split; cbn; rewrite ?Hq2, ?app_nil_r; auto using empty_hold.
  - inversion H; subst. exists [], []. repeat split; auto; [symmetry; apply app_nil_r|].
    intro Hio. rewrite Hio, andb_true_r in Hc. unfold needs_flush in Hc.
    pose proof (batch_size_le (regime_of (enqueue e l))). lia.
Qed.

Definition uniques (l : link) : list dgram := map fst (filter (fun c => negb (snd c)) (acc l)).
Definition nprobes (l : link) : Z := blen (filter (fun c : cpy => snd c) (acc l)).

Definition routed_to_op (j : nat) (o : op) : list dgram :=
  match o with
  | Client _ (b :: p) (Some i) _ _ _ => if Nat.eqb j i then [b :: p] else []
  | _ => []
  end.
Definition routed_data_op (o : op) : Z :=
  match o with
  | Client _ (b :: p) (Some _) _ _ _ => if is_some (seq_of (b :: p)) then 1 else 0
  | _ => 0
  end.

Inductive acc_change (o : op) (j : nat) (l l' : link) : Prop :=
| ac_same : acc l' = acc l -> routed_to_op j o = [] -> acc_change o j l l'
| ac_unique : forall now pkt i reg gated orc,
    o = Client now pkt (Some i) reg gated orc -> pkt <> [] -> j = i ->
    acc l' = acc l ++ [(pkt, false)] -> acc_change o j l l'
| ac_probe : forall now pkt i reg gated orc,
    o = Client now pkt (Some i) reg gated orc -> pkt <> [] -> j <> i ->
    reg = true -> is_some (seq_of pkt) = true -> nth j gated false = true -> connected l = true ->
    STALL_PROBE_ONE_IN_N <= ctr l + 1 ->
    acc l' = acc l ++ [(pkt, true)] -> acc_change o j l l'.

Definition may_lose (o : op) (j : nat) : Prop :=
  match o with
  | Client _ _ _ _ _ orc | FlushTick _ orc => has_fail (orc_of orc j) = true
  | Reset i _ => i = j
  | House eff _ => exists k, nth j eff HKeep = HReset k
  | _ => False
  end.

(** [true]: whatever the step puts on the wire is client data leaving the queue (nothing, for
    [SetRegime], [Reset], [SetConn]); [false]: the step's output is the sender's own control
    frames, and the queue sends nothing *)
Definition emits_client_data (o : op) : bool :=
  match o with House _ _ | Other _ => false | _ => true end.

(** the probe-rate potential: it grows by at most one per routed data packet and never otherwise *)
Definition potential (l : link) : Z := STALL_PROBE_ONE_IN_N * nprobes l + ctr l.

Lemma nprobes_unique : forall l l' p, acc l' = acc l ++ [(p, false)] -> nprobes l' = nprobes l.
Proof. intros l l' p H. unfold nprobes. rewrite H, filter_app. cbn. rewrite app_nil_r. reflexivity. Qed.
Lemma nprobes_probe : forall l l' p, acc l' = acc l ++ [(p, true)] -> nprobes l' = nprobes l + 1.
Proof. intros l l' p H. unfold nprobes. rewrite H, filter_app. cbn. apply blen_snoc. Qed.
Lemma nprobes_same : forall l l', acc l' = acc l -> nprobes l' = nprobes l.
Proof. intros l l' H. unfold nprobes. rewrite H. reflexivity. Qed.

Lemma routed_data_nonneg : forall o, 0 <= routed_data_op o <= 1.
Proof. destruct o as [? [|? ?] [?|] ? ? ?| | | | | |]; cbn; try destruct (is_some _); lia. Qed.

(** One op on link [j]: [w] is the step's output.  [ls_out]: only a client packet or a flush tick
    sends from the queue, and then [w] is what was sent; [ls_lost]: a loss needs a cause the
    property allows, and leaves the queue empty. *)
Record lstep (o : op) (j : nat) (l l' : link) (w : list dgram) (new sent lost : list qent) : Prop := {
  ls_q : qstep l new sent lost l';
  ls_acc : acc_change o j l l';
  ls_ctr : ctr_ok l -> ctr_ok l' /\ potential l' <= potential l + routed_data_op o;
  ls_hold : hold_ok l -> hold_ok l';
  ls_out : match o with
           | Client _ _ _ _ _ _ | FlushTick _ _ => w = map q_d sent
           | House _ _ | Other _ => sent = []
           | _ => w = [] /\ sent = []
           end;
  ls_lost : lost = [] \/ may_lose o j /\ queue l' = [] }.
Arguments ls_q {o j l l' w new sent lost}.
Arguments ls_acc {o j l l' w new sent lost}.
Arguments ls_ctr {o j l l' w new sent lost}.
Arguments ls_hold {o j l l' w new sent lost}.
Arguments ls_out {o j l l' w new sent lost}.
Arguments ls_lost {o j l l' w new sent lost}.

Lemma lstep_idle : forall o j l l' w,
  has_io l' = has_io l -> acc l' = acc l -> fates l' = fates l -> queue l' = queue l ->
  routed_to_op j o = [] -> w = [] \/ emits_client_data o = false ->
  ctr l' = ctr l \/ ctr l' = ctr l + 1 /\ ctr l' < STALL_PROBE_ONE_IN_N /\ routed_data_op o = 1 ->
  exists new sent lost, lstep o j l l' w new sent lost.
Proof.
  intros o j l l' w Hio Ha Hf Hq Hr Hw Hc. exists [], [], []. split.
  - split; cbn; rewrite ?app_nil_r; auto.
  - apply ac_same; assumption.
  - unfold ctr_ok, potential. rewrite (nprobes_same _ _ Ha). pose proof (routed_data_nonneg o). lia.
  - unfold hold_ok. rewrite Hio, Hq. exact id.
  - destruct Hw as [-> | Hw]; destruct o; try discriminate Hw; cbn; auto.
  - left; reflexivity.
Qed.

Lemma lstep_reset : forall o j l k w,
  routed_to_op j o = [] -> w = [] \/ emits_client_data o = false -> may_lose o j ->
  exists new sent lost, lstep o j l (reset_link k l) w new sent lost.
Proof.
  intros o j l k w Hr Hw Hl. destruct (reset_link_spec k l) as (Rio & Ra & Rf & Rq & Rc).
  exists [], [], (queue l). split.
  - split; cbn; rewrite ?Rq, ?app_nil_r; auto.
  - apply ac_same; assumption.
  - unfold ctr_ok, potential. rewrite (nprobes_same _ _ Ra).
    pose proof (routed_data_nonneg o). pose proof probe_n_pos. lia.
  - intros _. apply empty_hold, Rq.
  - destruct Hw as [-> | Hw]; destruct o; try discriminate Hw; cbn; auto.
  - right. split; assumption.
Qed.

Lemma lstep_queue : forall cnow pkt sel reg gated corc j l c now e orc l' w,
  let o := Client cnow pkt sel reg gated corc in
  queue_and_flush now e orc (set_ctr c l) = (l', w) -> (has_fail orc = true -> may_lose o j) ->
  (acc l' = acc l ++ [cpy_of e] -> acc_change o j l l') ->
  (ctr_ok l -> 0 <= c < STALL_PROBE_ONE_IN_N /\
     STALL_PROBE_ONE_IN_N * (if q_probe e then 1 else 0) + c <= ctr l + routed_data_op o) ->
  exists new sent lost, lstep o j l l' w new sent lost.
Proof.
  intros cnow pkt sel reg gated corc j l c now e orc l' w o H Hl Ha Hc. apply qaf_spec in H.
  destruct H as (sent & lost & Hq & Hw & Hlost & Hctr & Hh).
  pose proof (qs_acc Hq) as Hacc. cbn [acc set_ctr map] in Hacc.
  exists [e], sent, lost. split.
  - destruct Hq. split; assumption.
  - exact (Ha Hacc).
  - intro H. apply Hc in H. unfold ctr_ok, potential. cbn [ctr set_ctr] in Hctr.
    destruct e as [d sq t [|]]; [rewrite (nprobes_probe _ _ _ Hacc)|rewrite (nprobes_unique _ _ _ Hacc)];
      cbn [q_probe] in H; lia.
  - intros _. exact Hh.
  - exact Hw.
  - destruct Hlost as [Hn|[Hf Hq']]; [left; exact Hn|right; split; [apply Hl, Hf|exact Hq']].
Qed.

Lemma step_link_spec : forall hw o j l, exists new sent lost,
  lstep o j l (fst (step_link hw o j l)) (snd (step_link hw o j l)) new sent lost.
Proof.
  intros hw o j l. destruct o as [now pkt sel reg gated orc|now orc|i r|i k|i b|eff ctl|ctl];
    cbn [step_link].
  - destruct pkt as [|b0 pkt']; [apply lstep_idle; auto|].
    destruct sel as [i|]; [|apply lstep_idle; auto].
    set (o := Client now (b0 :: pkt') (Some i) reg gated orc).
    pose proof (routed_data_nonneg o) as [Hd _].
    destruct (Nat.eqb j i) eqn:Hji.
    + (* the scheduler's choice *)
      destruct (queue_and_flush _ _ _ l) as [l' w] eqn:Hq. cbn [fst snd].
      replace l with (set_ctr (ctr l) l) in Hq by (destruct l; reflexivity).
      eapply lstep_queue; [exact Hq|auto| |].
      * intro Ha. eapply ac_unique; [reflexivity|discriminate|apply Nat.eqb_eq, Hji|exact Ha].
      * intro Hc. cbn [q_probe mkq]. fold o. split; [exact Hc|lia].
    + assert (Hr : routed_to_op j o = []) by (cbn; rewrite Hji; reflexivity).
      destruct (reg && is_some _ && nth j gated false && connected l) eqn:Hc; [|apply lstep_idle; auto].
      rewrite !andb_true_iff in Hc. destruct Hc as (((Hreg & Hdata) & Hg) & Hconn).
      assert (Hd1 : routed_data_op o = 1) by (cbn; rewrite Hdata; reflexivity).
      destruct (STALL_PROBE_ONE_IN_N <=? ctr l + 1) eqn:Hn.
      * (* a due stall probe: the duplicate *)
        destruct (queue_and_flush _ _ _ (set_ctr 0 l)) as [l' w] eqn:Hq. cbn [fst snd].
        eapply lstep_queue; [exact Hq|auto| |].
        -- intro Ha. eapply ac_probe; [reflexivity|discriminate|apply Nat.eqb_neq, Hji|exact Hreg|exact Hdata
                                      |exact Hg|exact Hconn|lia|exact Ha].
        -- intros [Hc0 Hc1]. cbn [q_probe mkq]. fold o. clear - Hd1 Hn. pose proof probe_n_pos. lia.
      * apply lstep_idle; auto. right. cbn [fst ctr set_ctr]. clear - Hd1 Hn. lia.
  - destruct (hw && has_queued l && has_io l); [|apply lstep_idle; auto].
    destruct (flush_link now (orc_of orc j) l) as [[l2 out] ok] eqn:Hf. cbn [fst snd].
    apply flush_link_spec in Hf. destruct Hf as (sent & lost & Hq & Hq2 & Hout & Hctr & Hok).
    assert (Ha : acc l2 = acc l) by (rewrite (qs_acc Hq); apply app_nil_r).
    exists [], sent, lost. split.
    + exact Hq.
    + apply ac_same; [exact Ha|reflexivity].
    + unfold ctr_ok, potential. rewrite Hctr, (nprobes_same _ _ Ha). cbn. lia.
    + intros _. apply empty_hold, Hq2.
    + exact Hout.
    + destruct ok; [left; exact Hok|right; split; [exact Hok|exact Hq2]].
  - destruct (Nat.eqb j i); apply lstep_idle; auto.
  - destruct (Nat.eqb j i) eqn:E; [|apply lstep_idle; auto].
    apply lstep_reset; auto. symmetry. apply Nat.eqb_eq, E.
  - destruct (Nat.eqb j i); apply lstep_idle; auto.
  - cbn [fst snd]. destruct (nth j eff HKeep) as [|r|k] eqn:E; [apply lstep_idle; auto|apply lstep_idle; auto|].
    apply lstep_reset; auto. exists k. exact E.
  - apply lstep_idle; auto.
Qed.

Lemma step_link_inv : forall hw o j l, inv l -> inv (fst (step_link hw o j l)).
Proof.
  intros hw o j l (H1 & H2 & H3). destruct (step_link_spec hw o j l) as (new & sent & lost & H).
  split; [exact (qstep_log _ _ _ _ _ (ls_q H) H1)|split; [apply (ls_ctr H), H2|exact (ls_hold H H3)]].
Qed.

Lemma step_link_io : forall hw o j l, has_io (fst (step_link hw o j l)) = has_io l.
Proof. intros hw o j l. destruct (step_link_spec hw o j l) as (new & sent & lost & H). exact (qs_io (ls_q H)). Qed.

Lemma step_link_acc : forall hw o j l, acc_change o j l (fst (step_link hw o j l)).
Proof. intros hw o j l. destruct (step_link_spec hw o j l) as (new & sent & lost & H). exact (ls_acc H). Qed.

Lemma step_link_uniques : forall hw o j l,
  uniques (fst (step_link hw o j l)) = uniques l ++ routed_to_op j o.
Proof.
  intros hw o j l. unfold uniques.
  destruct (step_link_acc hw o j l) as [Ha Hr|now pkt i reg gated orc -> Hp -> Ha|now pkt i reg gated orc -> Hp Hji _ _ _ _ _ Ha].
  - rewrite Ha, Hr, app_nil_r. reflexivity.
  - rewrite Ha, filter_app, map_app. cbn. destruct pkt; [contradiction|]. rewrite Nat.eqb_refl. reflexivity.
  - rewrite Ha, filter_app, map_app. cbn. destruct pkt; [contradiction|].
    apply Nat.eqb_neq in Hji. rewrite Hji. cbn. rewrite ?app_nil_r. reflexivity.
Qed.

Lemma step_link_lost : forall hw o j l,
  lost_of (fst (step_link hw o j l)) <> lost_of l -> may_lose o j.
Proof.
  intros hw o j l Hne. destruct (step_link_spec hw o j l) as (new & sent & lost & H).
  destruct (ls_lost H) as [Hl|[Hl _]]; [|exact Hl].
  exfalso. apply Hne. rewrite (qstep_lost (ls_q H)), Hl. apply app_nil_r.
Qed.

Lemma step_link_wire : forall hw o j l,
  if emits_client_data o
  then map fst (wire_of (fst (step_link hw o j l))) = map fst (wire_of l) ++ snd (step_link hw o j l)
  else wire_of (fst (step_link hw o j l)) = wire_of l.
Proof.
  intros hw o j l. destruct (step_link_spec hw o j l) as (new & sent & lost & H).
  rewrite (qstep_wire (ls_q H)). pose proof (ls_out H) as Hw.
  destruct o; cbn [emits_client_data].
  1, 2: rewrite Hw, map_app, map_map; reflexivity.
  1-3: destruct Hw as [-> ->]; cbn [map]; rewrite !app_nil_r; reflexivity.
  all: rewrite Hw; apply app_nil_r.
Qed.

(** a flush tick empties a queue that has I/O, provided the "has work" scan saw it *)
Lemma flush_tick_link : forall hw now orc j l,
  (has_queued l = true -> hw = true) -> has_io l = true ->
  queue (fst (step_link hw (FlushTick now orc) j l)) = [].
Proof.
  intros hw now orc j l Hhw Hio. cbn [step_link]. rewrite Hio, andb_true_r.
  destruct (has_queued l) eqn:Hq.
  - rewrite (Hhw eq_refl). cbn [andb].
    destruct (flush_link now (orc_of orc j) l) as [[l2 out] ok] eqn:Hf.
    apply flush_link_spec in Hf. destruct Hf as (? & ? & _ & Hq2 & _). exact Hq2.
  - rewrite andb_false_r. cbn [fst]. unfold has_queued, blen in Hq. destruct (queue l); [reflexivity|cbn in Hq; lia].
Qed.

Lemma routed_one_uplink : forall o j1 j2, j1 <> j2 -> routed_to_op j1 o = [] \/ routed_to_op j2 o = [].
Proof.
  intros o j1 j2 Hne. destruct o as [now pkt sel reg gated orc| | | | | |]; try (left; reflexivity).
  destruct pkt as [|b p]; [left; reflexivity|]. destruct sel as [i|]; [|left; reflexivity].
  cbn. destruct (Nat.eqb j1 i) eqn:E1; [|left; reflexivity].
  destruct (Nat.eqb j2 i) eqn:E2; [|right; reflexivity].
  apply Nat.eqb_eq in E1, E2. congruence.
Qed.

Lemma step_links_length : forall hw o ls j, length (step_links hw o j ls) = length ls.
Proof. induction ls as [|l t IH]; intro j; cbn; [reflexivity|rewrite IH; reflexivity]. Qed.

Lemma step_length : forall ls o, length (fst (step ls o)) = length ls.
Proof. intros. unfold step. cbn. rewrite map_length, step_links_length. reflexivity. Qed.

Lemma exec_length : forall ops ls, length (exec ls ops) = length ls.
Proof.
  induction ops as [|o t IH]; intro ls; cbn [exec]; [reflexivity|].
  rewrite IH, step_length. reflexivity.
Qed.

Lemma nth_step_links : forall hw o d ls j k, (k < length ls)%nat ->
  nth k (map fst (step_links hw o j ls)) d = fst (step_link hw o (j + k) (nth k ls d)).
Proof.
  induction ls as [|l t IH]; intros j k Hk; cbn in Hk; [lia|].
  destruct k as [|k]; cbn [step_links map nth].
  - rewrite Nat.add_0_r. reflexivity.
  - rewrite IH by lia. f_equal. f_equal. lia.
Qed.

Lemma nth_step : forall ls o d k, (k < length ls)%nat ->
  nth k (fst (step ls o)) d = fst (step_link (existsb has_queued ls) o k (nth k ls d)).
Proof. intros. unfold step. cbn [fst]. rewrite nth_step_links by assumption. reflexivity. Qed.

Lemma step_links_Forall : forall (Q : link -> Prop) hw o ls,
  (forall j l, In l ls -> Q (fst (step_link hw o j l))) ->
  forall j, Forall Q (map fst (step_links hw o j ls)).
Proof.
  intros Q hw o. induction ls as [|l t IH]; intros Hs j; cbn; constructor.
  - apply Hs. left; reflexivity.
  - apply IH. intros j0 l0 Hin. apply Hs. right; exact Hin.
Qed.

Lemma step_inv : forall ls o, Forall inv ls -> Forall inv (fst (step ls o)).
Proof.
  intros ls o H. apply step_links_Forall. intros j l Hin. apply step_link_inv.
  rewrite Forall_forall in H. apply H, Hin.
Qed.

Lemma exec_inv : forall ops ls, Forall inv ls -> Forall inv (exec ls ops).
Proof. induction ops as [|o t IH]; intros ls H; cbn [exec]; [exact H|apply IH, step_inv, H]. Qed.

Lemma init_inv : forall xs, wf_init xs -> Forall inv (init xs).
Proof.
  intros xs H. unfold init. apply Forall_map. eapply Forall_impl; [|exact H].
  intros x Hx. split; [reflexivity|split; [exact Hx|]]. apply empty_hold. reflexivity.
Qed.

Lemma exec_init_Forall : forall (P : link -> Prop) xs ops, (forall l, inv l -> P l) -> wf_init xs ->
  Forall P (exec (init xs) ops).
Proof. intros P xs ops HP H. eapply Forall_impl; [exact HP|apply exec_inv, init_inv, H]. Qed.

Lemma step_io : forall ls o, map has_io (fst (step ls o)) = map has_io ls.
Proof.
  intros ls o. unfold step. cbn [fst]. generalize (existsb has_queued ls) as hw. generalize 0%nat as j.
  induction ls as [|l t IH]; intros j hw; cbn; [reflexivity|].
  rewrite step_link_io, IH. reflexivity.
Qed.

Lemma exec_io : forall ops ls, map has_io (exec ls ops) = map has_io ls.
Proof.
  induction ops as [|o t IH]; intro ls; cbn [exec]; [reflexivity|]. rewrite IH, step_io. reflexivity.
Qed.

Lemma step_flush_empties : forall ls now orc,
  Forall (fun l => has_io l = true -> queue l = []) (fst (step ls (FlushTick now orc))).
Proof.
  intros ls now orc. apply step_links_Forall. intros j l Hin. rewrite step_link_io.
  apply flush_tick_link. intro Hq. apply existsb_exists. exists l. split; assumption.
Qed.

Inductive subseq {A} : list A -> list A -> Prop :=
| subseq_nil : subseq [] []
| subseq_take : forall x a b, subseq a b -> subseq (x :: a) (x :: b)
| subseq_skip : forall x a b, subseq a b -> subseq a (x :: b).

Lemma subseq_refl : forall {A} (l : list A), subseq l l.
Proof. induction l; constructor; assumption. Qed.
Lemma subseq_app_r : forall {A} (a b c : list A), subseq a b -> subseq a (b ++ c).
Proof.
  intros A a b c H. induction H; cbn; [|constructor; assumption|constructor; assumption].
  induction c; constructor; assumption.
Qed.
Lemma subseq_filter_map : forall {A B} (f : A -> B) p (l : list A), subseq (map f (filter p l)) (map f l).
Proof.
  induction l as [|x t IH]; cbn; [constructor|].
  destruct (p x); cbn; constructor; exact IH.
Qed.

Lemma perm_filter_split : forall {A B} (f : A -> B) p (l : list A),
  Permutation (map f l) (map f (filter p l) ++ map f (filter (fun x => negb (p x)) l)).
Proof.
  induction l as [|x t IH]; cbn; [constructor|].
  destruct (p x); cbn.
  - constructor. exact IH.
  - apply Permutation_cons_app. exact IH.
Qed.

Lemma inv_conservation : forall l, inv l ->
  Permutation (acc l) (wire_of l ++ lost_of l ++ map cpy_of (queue l)).
Proof.
  intros l (H & _). unfold log_ok in H. rewrite H, app_assoc.
  apply Permutation_app_tail. apply perm_filter_split.
Qed.

Lemma inv_queue_suffix : forall l, inv l -> exists done, acc l = done ++ map cpy_of (queue l) /\ subseq (wire_of l) done.
Proof.
  intros l (H & _). exists (map fst (fates l)). split; [exact H|apply subseq_filter_map].
Qed.

Lemma inv_fifo : forall l, inv l -> subseq (wire_of l) (acc l).
Proof. intros l H. destruct (inv_queue_suffix l H) as (done & -> & Hs). apply subseq_app_r, Hs. Qed.

Definition dlink : link :=
  init_link {| i_regime := Normal; i_conn := false; i_ctr := 0; i_io := false |}.

Definition routed_to (j : nat) (ops : list op) : list dgram := flat_map (routed_to_op j) ops.
Definition routed_data (ops : list op) : Z := fold_right (fun o a => routed_data_op o + a) 0 ops.

Lemma exec_app : forall a b ls, exec ls (a ++ b) = exec (exec ls a) b.
Proof. induction a as [|o t IH]; intros b ls; cbn [exec app]; [reflexivity|apply IH]. Qed.

(** also past the end, where [nth] answers [dlink] *)
Lemma Forall_nth_inv : forall ls j, Forall inv ls -> inv (nth j ls dlink).
Proof.
  intros ls j H. destruct (nth_in_or_default j ls dlink) as [Hin| ->]; [rewrite Forall_forall in H; apply H, Hin|].
  split; [reflexivity|split; [split; [reflexivity|apply probe_n_pos]|apply empty_hold; reflexivity]].
Qed.

Lemma exec_uniques : forall ops ls j, (j < length ls)%nat ->
  uniques (nth j (exec ls ops) dlink) = uniques (nth j ls dlink) ++ routed_to j ops.
Proof.
  induction ops as [|o t IH]; intros ls j Hj; cbn [exec routed_to flat_map].
  - rewrite app_nil_r. reflexivity.
  - rewrite IH by (rewrite step_length; exact Hj).
    rewrite nth_step by exact Hj. rewrite step_link_uniques, <- app_assoc. reflexivity.
Qed.

Lemma exec_potential : forall ops ls j, Forall inv ls -> (j < length ls)%nat ->
  potential (nth j (exec ls ops) dlink) <= potential (nth j ls dlink) + routed_data ops /\
  nprobes (nth j ls dlink) <= nprobes (nth j (exec ls ops) dlink).
Proof.
  induction ops as [|o t IH]; intros ls j Hinv Hj; cbn [exec].
  - cbn. lia.
  - change (routed_data (o :: t)) with (routed_data_op o + routed_data t).
    destruct (IH (fst (step ls o)) j (step_inv _ _ Hinv)) as [H1 H2]; [rewrite step_length; exact Hj|].
    rewrite nth_step in H1, H2 by exact Hj.
    destruct (Forall_nth_inv _ j Hinv) as (_ & Hc & _).
    destruct (step_link_spec (existsb has_queued ls) o j (nth j ls dlink)) as (new & sent & lost & H).
    apply (ls_ctr H) in Hc. unfold nprobes in H2 |- *. rewrite (qs_acc (ls_q H)), filter_app, blen_app in H2.
    pose proof (blen_nonneg (filter (fun c : cpy => snd c) (map cpy_of new))). lia.
Qed.

Lemma init_nth_acc : forall xs j, acc (nth j (init xs) dlink) = [].
Proof. intros xs j. unfold init, dlink. rewrite map_nth. reflexivity. Qed.
