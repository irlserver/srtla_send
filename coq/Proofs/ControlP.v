(** ControlP.v — what the dispatcher model does, stated against the declarative protocol
    (ControlSpec.v): which answer every line gets on either entry point, which setting it
    applies, and that the two entry points agree outside the subscription methods. *)
From Srtla Require Import Base Constants Json Control ControlSpec DecodeP.
Local Open Scope string_scope.
Local Open Scope Z_scope.

Lemma codes_ok :
  PARSE_ERROR = -32700 /\ INVALID_REQUEST = -32600 /\ METHOD_NOT_FOUND = -32601 /\
  INVALID_PARAMS = -32602 /\ INTERNAL_ERROR = -32603.
Proof. repeat split; reflexivity. Qed.

Lemma clamp_ok ms : rust_clamp CONN_TIMEOUT_MS_MIN CONN_TIMEOUT_MS_MAX ms = Some (spec_clamp ms).
Proof. reflexivity. Qed.

Lemma spec_clamp_range ms : 1000 <= spec_clamp ms <= 60000.
Proof. unfold spec_clamp. lia. Qed.

Lemma spec_clamp_id ms : 1000 <= ms <= 60000 -> spec_clamp ms = ms.
Proof. unfold spec_clamp. lia. Qed.

Definition apply_setting (c : config) (s : option setting) : config :=
  match s with
  | None => c
  | Some (SMode m) => set_mode c m
  | Some (SQuality b) => set_quality c b
  | Some (SStall b) => set_stall c b
  | Some (STimeout z) => store_timeout c z
  end.

(** the result object of a successful base method other than get_stats *)
Definition result_of (c : config) (e : env) (me : string) (p : json) : json :=
  if String.eqb me "get_status" then status_json c e
  else match setting_of me p with
       | Some (SMode m) => JObj [("mode", JStr (mode_str m))]
       | Some (SQuality b) => JObj [("enabled", JBool b)]
       | Some (SStall b) => JObj [("enabled", JBool b)]
       | Some (STimeout z) => JObj [("ms", JInt z)]
       | None => JNull
       end.

(** split on [me] being the method name [lit]; the negative case keeps the test as [E] *)
Ltac case_me me lit E :=
  destruct (String.eqb me lit) eqn:E;
  [apply String.eqb_eq in E; subst me | ].

Lemma handle_method_sem c e me p :
  handle_method c e me p =
  if negb (is_base_method me) then HErr METHOD_NOT_FOUND
  else if negb (params_ok me p) then HErr INVALID_PARAMS
  else if String.eqb me "get_stats" then
    match e_stats e with StatsOk v => HOk c v | _ => HErr INTERNAL_ERROR end
  else HOk (apply_setting c (setting_of me p)) (result_of c e me p).
Proof.
  (* one method name at a time on the folded goal, so that only the chosen branch is ever unfolded *)
  case_me me "set_mode" E1.
  { cbn. destruct (vget p "mode") as [[]|]; cbn; try reflexivity.
    unfold parse_mode. destruct (String.eqb s "classic"); [reflexivity|].
    destruct (String.eqb s "enhanced"); reflexivity. }
  case_me me "set_quality" E2.
  { cbn. destruct (vget p "enabled") as [[]|]; reflexivity. }
  case_me me "set_stall_deselect" E3.
  { cbn. destruct (vget p "enabled") as [[]|]; reflexivity. }
  case_me me "set_conn_timeout" E4.
  { cbn -[rust_clamp spec_clamp]. destruct (vget p "ms") as [[]|]; cbn -[rust_clamp spec_clamp]; try reflexivity.
    destruct ((0 <=? z) && (z <? two64)); [|reflexivity].
    unfold set_conn_timeout_ms. rewrite clamp_ok. reflexivity. }
  case_me me "get_status" E5; [reflexivity|].
  case_me me "get_stats" E6; [destruct e as [[] cw]; reflexivity|].
  unfold handle_method, is_base_method. rewrite E1, E2, E3, E4, E5, E6.
  destruct (String.eqb me "subscribe" || String.eqb me "unsubscribe"); reflexivity.
Qed.

Lemma setting_of_base me p s : setting_of me p = Some s -> is_base_method me = true.
Proof.
  unfold setting_of, is_base_method.
  destruct (String.eqb me "set_mode"); [reflexivity|].
  destruct (String.eqb me "set_quality"); [reflexivity|].
  destruct (String.eqb me "set_stall_deselect"); [reflexivity|].
  destruct (String.eqb me "set_conn_timeout"); [reflexivity|discriminate].
Qed.

Lemma setting_of_range me p z : setting_of me p = Some (STimeout z) -> 1000 <= z <= 60000.
Proof.
  unfold setting_of.
  destruct (String.eqb me "set_mode"); [destruct (vget p "mode") as [[]|]; discriminate|].
  destruct (String.eqb me "set_quality"); [destruct (vget p "enabled") as [[]|]; discriminate|].
  destruct (String.eqb me "set_stall_deselect"); [destruct (vget p "enabled") as [[]|]; discriminate|].
  destruct (String.eqb me "set_conn_timeout"); [|discriminate].
  destruct (vget p "ms") as [[]|]; try discriminate.
  intros [= <-]. apply spec_clamp_range.
Qed.

Lemma base_not_sub me : is_base_method me = true -> is_sub_method me = false.
Proof.
  unfold is_base_method, is_sub_method. intro H.
  case_me me "subscribe" E1; [discriminate|].
  case_me me "unsubscribe" E2; [discriminate|].
  case_me me "get_subscription_count" E3; [discriminate|]. reflexivity.
Qed.

Lemma sub_not_base me : is_sub_method me = true -> is_base_method me = false.
Proof. intro H. destruct (is_base_method me) eqn:Hb; [apply base_not_sub in Hb; congruence|reflexivity]. Qed.

Lemma setting_of_nonbase me p : is_base_method me = false -> setting_of me p = None.
Proof. intro H. destruct (setting_of me p) eqn:E; [apply setting_of_base in E; congruence|reflexivity]. Qed.

Lemma base_known e me : is_base_method me = true -> known_method e me = true.
Proof. intro H. unfold known_method. rewrite H. reflexivity. Qed.

Lemma known_socket ctx me : known_method (Socket ctx) me = is_base_method me || (ctx && is_sub_method me).
Proof. destruct ctx; reflexivity. Qed.
Lemma known_socket_false me : known_method (Socket false) me = is_base_method me.
Proof. apply orb_false_r. Qed.

Definition answer (id : option json) (h : hm_result) (c : config) : outcome * config :=
  match h with
  | HPanic => (Panic, c)
  | HOk c' v => (Done (respond id (BResult v)), c')
  | HErr code => (Done (respond id (BError code)), c)
  end.

Definition sub_answer (id : option json) (s : sub_result) (c : config) (h : hub) : outcome * config * hub :=
  match s with
  | SOk h' v => (Done (respond id (BResult v)), c, h')
  | SErr code => (Done (respond id (BError code)), c, h)
  end.

Definition sub_handle (h : hub) (me : string) (p : json) : sub_result :=
  if String.eqb me "subscribe" then handle_subscribe h p
  else if String.eqb me "unsubscribe" then handle_unsubscribe h p
  else SOk h (JObj [("count", JInt (blen (h_live h)))]).

Definition line_request (l : line_outcome) : option (string * string * json * option json) :=
  match l with Parsed j => spec_request j | _ => None end.

Lemma dispatch_unfold c e l :
  dispatch c e l =
  match line_request l with
  | None => (match l with Blank => Done None | _ => parse_error end, c)
  | Some (v, me, p, id) =>
      if negb (String.eqb v "2.0") then (Done (respond id (BError INVALID_REQUEST)), c)
      else answer id (handle_method c e me p) c
  end.
Proof.
  destruct l as [| |j]; try reflexivity.
  unfold dispatch, line_request. rewrite <- (decode_spec j).
  destruct (decode_request j) as [rq|]; reflexivity.
Qed.

Lemma dispatch_async_unfold ctx c h e l :
  dispatch_async ctx c h e l =
  match line_request l with
  | None => (match l with Blank => Done None | _ => parse_error end, c, h)
  | Some (v, me, p, id) =>
      if negb (String.eqb v "2.0") then (Done (respond id (BError INVALID_REQUEST)), c, h)
      else if ctx && is_sub_method me then sub_answer id (sub_handle h me p) c h
      else (answer id (handle_method c e me p) c, h)
  end.
Proof.
  destruct l as [| |j]; try reflexivity.
  unfold dispatch_async, line_request. rewrite <- (decode_spec j).
  destruct (decode_request j) as [rq|]; [|reflexivity].
  cbn [option_map req_tuple]. unfold JSONRPC_VERSION.
  destruct (negb (String.eqb (rq_jsonrpc rq) "2.0")); [reflexivity|].
  unfold is_sub_method, sub_handle, answer.
  destruct ctx; cbn [andb].
  - destruct (String.eqb (rq_method rq) "subscribe"); [reflexivity|].
    destruct (String.eqb (rq_method rq) "unsubscribe"); [reflexivity|].
    destruct (String.eqb (rq_method rq) "get_subscription_count"); [reflexivity|].
    destruct (handle_method c e (rq_method rq) (rq_params rq)); reflexivity.
  - destruct (handle_method c e (rq_method rq) (rq_params rq)); reflexivity.
Qed.

Theorem async_agrees ctx c h e l :
  (match line_request l with
   | Some (_, me, _, _) => ctx && is_sub_method me = false
   | None => True
   end) ->
  dispatch_async ctx c h e l = (dispatch c e l, h).
Proof.
  intro H. rewrite dispatch_async_unfold, dispatch_unfold.
  destruct (line_request l) as [[[[v me] p] id]|]; [|reflexivity].
  rewrite H. destruct (negb (String.eqb v "2.0")); reflexivity.
Qed.

Lemma spec_setting_unfold l :
  spec_setting l =
  match line_request l with
  | Some (v, me, p, _) => if String.eqb v "2.0" && params_ok me p then setting_of me p else None
  | None => None
  end.
Proof. destruct l; reflexivity. Qed.

Lemma spec_expect_unfold ent l :
  spec_expect ent l =
  match line_request l with
  | None => match l with Blank => ENone | _ => EError JNull (-32700) end
  | Some (v, me, p, id) => match id with None => ENone | Some i => expect_for ent v me p i end
  end.
Proof. destruct l; reflexivity. Qed.

Lemma spec_method_unfold l :
  spec_method l = match line_request l with
                  | Some (_, me, _, id) => Some (me, match id with Some _ => true | None => false end)
                  | None => None
                  end.
Proof. destruct l as [| |j]; reflexivity. Qed.

Lemma spec_setting_range l z : spec_setting l = Some (STimeout z) -> 1000 <= z <= 60000.
Proof.
  rewrite spec_setting_unfold.
  destruct (line_request l) as [[[[v me] p] id]|]; [|discriminate].
  destruct (String.eqb v "2.0" && params_ok me p); [|discriminate]. apply setting_of_range.
Qed.

(** [P] is what is known of the value of a result *)
Definition conforms (ex : expect) (r : option response) (P : json -> Prop) : Prop :=
  match ex with
  | ENone => r = None
  | EError id code => r = Some {| rs_id := id; rs_body := BError code |}
  | EResult id => exists v, r = Some {| rs_id := id; rs_body := BResult v |} /\ P v
  | EResultOrInternal id =>
      (exists v, r = Some {| rs_id := id; rs_body := BResult v |}) \/
      r = Some {| rs_id := id; rs_body := BError (-32603) |}
  end.

(** the result of a base method is determined by the configuration before the call *)
Definition result_fact (c : config) (e : env) (l : line_outcome) (v : json) : Prop :=
  match line_request l with
  | Some (_, me, p, _) => is_sub_method me = false -> v = result_of c e me p
  | None => True
  end.

Lemma handle_subscribe_sem h p :
  match handle_subscribe h p with
  | SOk _ _ => params_ok "subscribe" p = true
  | SErr code => params_ok "subscribe" p = false /\ code = INVALID_PARAMS
  end.
Proof.
  unfold handle_subscribe, is_known_topic.
  change (params_ok "subscribe" p) with (str_in (vget p "topic") ["stats"; "priority.window"]).
  destruct (vget p "topic") as [[]|]; cbn [obind as_str str_in existsb]; auto.
  rewrite orb_false_r. destruct (String.eqb s "stats" || String.eqb s "priority.window"); cbn [negb]; auto.
Qed.

Lemma handle_unsubscribe_sem h p :
  match handle_unsubscribe h p with
  | SOk _ _ => params_ok "unsubscribe" p = true
  | SErr code => params_ok "unsubscribe" p = false /\ code = INVALID_PARAMS
  end.
Proof.
  unfold handle_unsubscribe.
  change (params_ok "unsubscribe" p) with (is_string (vget p "subscription_id")).
  destruct (vget p "subscription_id") as [[]|]; cbn [obind as_str is_string]; auto.
Qed.

Lemma sub_handle_sem h me p :
  is_sub_method me = true ->
  match sub_handle h me p with
  | SOk _ _ => params_ok me p = true
  | SErr code => params_ok me p = false /\ code = INVALID_PARAMS
  end.
Proof.
  unfold is_sub_method. intro H.
  case_me me "subscribe" E1; [exact (handle_subscribe_sem h p)|].
  case_me me "unsubscribe" E2; [exact (handle_unsubscribe_sem h p)|].
  case_me me "get_subscription_count" E3; [reflexivity|discriminate].
Qed.

Lemma expect_for_sub v me p i :
  String.eqb v "2.0" = true -> is_sub_method me = true ->
  expect_for (Socket true) v me p i = if params_ok me p then EResult i else EError i (-32602).
Proof.
  intros Hv Hs. unfold expect_for, known_method. rewrite Hv, Hs, orb_true_r. cbn [negb].
  destruct (params_ok me p); cbn [negb]; [|reflexivity].
  destruct (String.eqb me "get_stats") eqn:E; [|reflexivity].
  apply String.eqb_eq in E. subst me. discriminate.
Qed.

(** The socket; stdin is the socket without a subscription context. *)
Theorem dispatch_async_conforms ctx c h e l :
  exists r, fst (fst (dispatch_async ctx c h e l)) = Done r /\
    conforms (spec_expect (Socket ctx) l) r (result_fact c e l) /\
    snd (fst (dispatch_async ctx c h e l)) = apply_setting c (spec_setting l).
Proof.
  rewrite dispatch_async_unfold, spec_setting_unfold, spec_expect_unfold. unfold result_fact.
  destruct (line_request l) as [[[[v me] p] id]|]; [|destruct l; eexists; repeat split].
  destruct (String.eqb v "2.0") eqn:Hv; cbn [negb andb].
  2:{ eexists. split; [reflexivity|]. split; [|reflexivity].
      destruct id; [|reflexivity]. unfold expect_for. rewrite Hv. reflexivity. }
  destruct (ctx && is_sub_method me) eqn:Hs.
  - (* answered by the hub: never a setting *)
    apply andb_true_iff in Hs. destruct Hs as [-> Hs].
    rewrite (setting_of_nonbase me p (sub_not_base me Hs)).
    pose proof (sub_handle_sem h me p Hs) as Hh.
    destruct (sub_handle h me p) as [h' x|code]; (eexists; split; [reflexivity|]);
      (split; [|destruct (params_ok me p); reflexivity]);
      (destruct id as [i|]; [rewrite (expect_for_sub v me p i Hv Hs)|reflexivity]).
    + rewrite Hh. exists x. split; [reflexivity|congruence].
    + destruct Hh as [-> ->]. reflexivity.
  - (* answered by [handle_method] *)
    unfold expect_for. rewrite Hv, known_socket, Hs, orb_false_r, handle_method_sem. cbn [negb].
    destruct (is_base_method me) eqn:Hb; cbn [negb].
    2:{ rewrite (setting_of_nonbase me p Hb). eexists. split; [reflexivity|].
        split; [destruct id|destruct (params_ok me p)]; reflexivity. }
    destruct (params_ok me p); cbn [negb].
    2:{ eexists. split; [reflexivity|]. split; [destruct id|]; reflexivity. }
    destruct (String.eqb me "get_stats") eqn:Hg.
    + apply String.eqb_eq in Hg. subst me.
      destruct (e_stats e); eexists; (split; [reflexivity|]); (split; [|reflexivity]); destruct id; cbn; eauto.
    + eexists. split; [reflexivity|]. split; [|reflexivity]. destruct id; cbn; eauto.
Qed.

Theorem dispatch_conforms c e l :
  exists r, fst (dispatch c e l) = Done r /\
    conforms (spec_expect Stdin l) r (result_fact c e l) /\
    snd (dispatch c e l) = apply_setting c (spec_setting l).
Proof.
  pose proof (dispatch_async_conforms false c hub_new e l) as H.
  rewrite async_agrees in H; [exact H|].
  destruct (line_request l) as [[[[v me] p] id]|]; reflexivity.
Qed.

