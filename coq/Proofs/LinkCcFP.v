(** LinkCcFP.v — the f64 rendering of the target arithmetic (Model/LinkCcF.v) computes exactly
    what the integer model (Model/LinkCc.v) computes.  IEEE-754 binary64, round to nearest even,
    through Flocq's bridge to Coq's primitive floats. *)
From Srtla Require Import FloatP Base Constants LinkCc LinkCcF LinkCcP LinkCcRttP.
From Srtla Require FConstants.
From Coq Require Import Reals Lia Lra Floats Uint63.
From Flocq Require Import Core.Core IEEE754.BinarySingleNaN.
From Flocq Require IEEE754.PrimFloat.
#[local] Existing Instance FP.Hprec.
#[local] Existing Instance FP.Hmax.

Section Exact.
Local Open Scope R_scope.

Notation fexp64 := (SpecFloat.fexp FloatOps.prec FloatOps.emax).

Definition fint (x : PrimFloat.float) (z : Z) : Prop := fval x (IZR z).

Lemma rnd_int z : (Z.abs z < 2 ^ 53)%Z -> rnd (IZR z) = IZR z.
Proof.
  intro H. apply round_generic; [apply valid_rnd_N|].
  replace (IZR z) with (IZR z * bpow radix2 0) by (simpl; ring). apply gen_scaled; lia.
Qed.

Lemma small_no_ovf r : Rabs r < bpow radix2 53 -> Rabs r < bpow radix2 emax.
Proof. intro H. apply Rlt_trans with (1 := H). apply bpow_lt. reflexivity. Qed.

Lemma abs_int_lt z : (Z.abs z < 2 ^ 53)%Z -> Rabs (IZR z) < bpow radix2 53.
Proof. intro H. rewrite <- abs_IZR. change (bpow radix2 53) with (IZR (2 ^ 53)). apply IZR_lt, H. Qed.

Lemma small_u64 r : 0 <= r -> Rabs r < bpow radix2 53 -> 0 <= r < IZR (2 ^ 64).
Proof.
  intros H0 H. split; [exact H0|]. apply Rabs_lt_inv in H. apply Rlt_trans with (1 := proj2 H).
  change (bpow radix2 53) with (IZR (2 ^ 53)). apply IZR_lt. reflexivity.
Qed.

Lemma z2f_exact z : (0 <= z < 2 ^ 53)%Z -> fint (z2f z) z.
Proof.
  intro H. unfold fint. rewrite <- (rnd_int z) by lia. apply (ofZ_R z). lia.
Qed.

(** an operation whose exact result is an integer below 2^53 returns that integer *)
Lemma int_result x r z : r = IZR z -> (Z.abs z < 2 ^ 53)%Z ->
  (Rabs (rnd r) < bpow radix2 emax -> fval x (rnd r)) -> fint x z.
Proof.
  intros -> H K. rewrite rnd_int in K by exact H. apply K, small_no_ovf, abs_int_lt, H.
Qed.

Lemma mul_int x y a b : fint x a -> fint y b -> (Z.abs (a * b) < 2 ^ 53)%Z -> fint (x * y)%float (a * b).
Proof.
  intros Hx Hy H. apply (int_result _ (IZR a * IZR b)); [symmetry; apply mult_IZR|exact H|].
  apply mul_val; assumption.
Qed.

Lemma sub_int x y a b : fint x a -> fint y b -> (Z.abs (a - b) < 2 ^ 53)%Z -> fint (x - y)%float (a - b).
Proof.
  intros Hx Hy H. apply (int_result _ (IZR a - IZR b)); [symmetry; apply minus_IZR|exact H|].
  apply sub_val; assumption.
Qed.

Lemma fmin_val a b ra rb : fval a ra -> fval b rb -> fval (fmin a b) (Rmin ra rb).
Proof.
  intros [Fa <-] [Fb <-]. unfold fmin. rewrite !ffin_not_nan, ltb_R by assumption.
  case Rlt_bool_spec; intro H.
  - rewrite Rmin_right by lra. now split.
  - rewrite Rmin_left by lra. now split.
Qed.

Lemma fmax_val a b ra rb : fval a ra -> fval b rb -> fval (fmax a b) (Rmax ra rb).
Proof.
  intros [Fa <-] [Fb <-]. unfold fmax. rewrite !ffin_not_nan, ltb_R by assumption.
  case Rlt_bool_spec; intro H.
  - rewrite Rmax_right by lra. now split.
  - rewrite Rmax_left by lra. now split.
Qed.

Lemma f64_to_u64_floor x r : fval x r -> 0 <= r < IZR (2 ^ 64) -> f64_to_u64 x = Zfloor r.
Proof.
  intros [F E] [H0 H1]. unfold f64_to_u64.
  apply ffin_Prim2SF in F. rewrite FR_Prim2SF in E.
  destruct (Prim2SF x) as [s|s| |s m e]; try discriminate.
  - simpl in E. subst r. symmetry. apply (Zfloor_IZR 0).
  - unfold SF2R in E. destruct s.
    + exfalso. assert (F2R (Float radix2 (cond_Zopp true (Z.pos m)) e) < 0).
      { apply F2R_lt_0. simpl. lia. }
      lra.
    + simpl cond_Zopp in E. destruct (0 <=? e)%Z eqn:Ee.
      * assert (Er : r = IZR (Z.pos m * 2 ^ e)).
        { subst r. unfold F2R. simpl Fnum. simpl Fexp. rewrite mult_IZR. f_equal.
          rewrite <- (IZR_Zpower radix2) by lia. reflexivity. }
        rewrite Er, Zfloor_IZR. rewrite Er in H1. apply lt_IZR in H1.
        unfold u64_max, two64. change (2 ^ 64)%Z with 18446744073709551616%Z in H1. lia.
      * assert (Hp : (0 < 2 ^ (- e))%Z) by (apply Z.pow_pos_nonneg; lia).
        assert (Er : r = IZR (Z.pos m) / IZR (2 ^ (- e))).
        { subst r. unfold F2R. simpl Fnum. simpl Fexp. unfold Rdiv. f_equal.
          rewrite (IZR_Zpower radix2) by lia. rewrite <- bpow_opp. f_equal. lia. }
        rewrite Er, Zfloor_div by lia.
        assert (Hle : (Z.pos m / 2 ^ (- e) <= Z.pos m)%Z) by (apply Z.div_le_upper_bound; nia).
        assert (Hq : (Z.pos m / 2 ^ (- e) < 2 ^ 64)%Z).
        { apply lt_IZR. apply Rle_lt_trans with (2 := H1). rewrite Er.
          rewrite <- (Zfloor_div (Z.pos m) (2 ^ (- e))) by lia. apply Zfloor_lb. }
        unfold u64_max, two64. change (2 ^ 64)%Z with 18446744073709551616%Z in Hq. lia.
Qed.

Lemma rnd_err x k : x <> 0 -> Rabs x < bpow radix2 k -> (-1074 <= k - 53)%Z ->
  Rabs (rnd x - x) <= bpow radix2 (k - 54).
Proof.
  intros Hx Hk He.
  pose proof (error_le_half_ulp radix2 fexp64 (fun z => negb (Z.even z)) x) as H.
  rewrite ulp_neq_0 in H by exact Hx.
  assert (Hc : (cexp radix2 fexp64 x <= k - 53)%Z).
  { unfold cexp, SpecFloat.fexp. pose proof (mag_le_bpow radix2 x k Hx Hk).
    unfold SpecFloat.emin, emax, prec. lia. }
  apply Rle_trans with (1 := H).
  replace (k - 54)%Z with (-1 + (k - 53))%Z by ring. rewrite bpow_plus.
  change (bpow radix2 (-1)) with (/ 2).
  apply Rmult_le_compat_l; [lra|apply bpow_le; exact Hc].
Qed.

(** half an ulp of a binary64 number below 2^29 *)
Definition eps : R := bpow radix2 (-25).
Lemma eps_val : eps = / 33554432.
Proof. unfold eps. simpl. reflexivity. Qed.

Lemma rnd_eps x : 0 < x < 536870912 (* 2^29 *) -> x - eps <= rnd x <= x + eps.
Proof.
  intros [H0 H1].
  assert (Hk : Rabs x < bpow radix2 29).
  { rewrite Rabs_pos_eq by lra. change (bpow radix2 29) with (IZR (2 ^ 29)).
    change (2 ^ 29)%Z with 536870912%Z. exact H1. }
  pose proof (rnd_err x 29 ltac:(lra) Hk ltac:(lia)) as He.
  change (bpow radix2 (29 - 54)) with eps in He. apply Rabs_le_inv in He. lra.
Qed.

Lemma floor_in y n : IZR n <= y < IZR n + 1 -> Zfloor y = n.
Proof. intros [H1 H2]. apply Zfloor_imp. rewrite plus_IZR. lra. Qed.

(** A rounded quotient [qf] by 1000.0 relative to the integer quotient [a]: exact, or strictly
    inside the unit interval above [a], at least 1/1000 - 2^-25 away from both ends. *)
Definition near (qf : R) (a : Z) : Prop :=
  qf = IZR a \/ IZR a + / 1000 - eps <= qf <= IZR a + 1 - / 1000 + eps.

Lemma near_div1000 P : (0 <= P < 2 ^ 38)%Z -> near (rnd (IZR P / 1000)) (P / 1000).
Proof.
  intros HP.
  pose proof (Z.div_mod P 1000 ltac:(lia)) as Hdm.
  pose proof (Z.mod_pos_bound P 1000 ltac:(lia)) as Hr.
  set (a := (P / 1000)%Z) in *. set (r := (P mod 1000)%Z) in *.
  assert (Hq : IZR P / 1000 = IZR a + IZR r / 1000).
  { rewrite Hdm, plus_IZR, mult_IZR. field. }
  destruct (Z.eq_dec r 0) as [H0|Hn]; [left|right].
  - rewrite Hq, H0. replace (IZR a + 0 / 1000) with (IZR a) by field. apply rnd_int. lia.
  - assert (Hr1 : 1 <= IZR r <= 999) by (split; apply IZR_le; lia).
    assert (Ha : 0 <= IZR a <= 274877906) by (split; apply IZR_le; lia).
    pose proof (rnd_eps (IZR P / 1000)) as He. rewrite Hq in *. lra.
Qed.

(** second rounding: adding an integer [t] to a value strictly inside (a, a+1) *)
Lemma floor_rnd_sum (t a : Z) (qf : R) :
  (0 <= t < 2 ^ 28)%Z -> (0 <= a < 2 ^ 28)%Z ->
  IZR a + / 1000 - eps <= qf <= IZR a + 1 - / 1000 + eps ->
  Zfloor (rnd (IZR t + qf)) = (t + a)%Z /\ Rabs (rnd (IZR t + qf)) < bpow radix2 53.
Proof.
  intros Ht Ha Hq. pose proof eps_val as Ev.
  assert (Ht' : 0 <= IZR t <= 268435455) by (split; apply IZR_le; lia).
  assert (Ha' : 0 <= IZR a <= 268435455) by (split; apply IZR_le; lia).
  pose proof (rnd_eps (IZR t + qf) ltac:(lra)) as He.
  split.
  - apply floor_in. rewrite plus_IZR. lra.
  - rewrite Rabs_pos_eq by lra. change (bpow radix2 53) with (IZR (2 ^ 53)).
    change (2 ^ 53)%Z with 9007199254740992%Z. lra.
Qed.

Lemma c_1000 : fval 1000%float 1000. Proof. prim_const. Qed.
Lemma c_2 : fint 2%float 2. Proof. prim_const. Qed.
Lemma c_outlier : fint FConstants.CC_OUTLIER_FACTOR 4. Proof. prim_const. Qed.

Lemma Rmax_IZR a b : Rmax (IZR a) (IZR b) = IZR (Z.max a b).
Proof.
  destruct (Z_le_gt_dec a b) as [H|H].
  - rewrite Rmax_right by (apply IZR_le; lia). f_equal. lia.
  - rewrite Rmax_left by (apply IZR_le; lia). f_equal. lia.
Qed.
Lemma Rmin_IZR a b : Rmin (IZR a) (IZR b) = IZR (Z.min a b).
Proof.
  destruct (Z_le_gt_dec a b) as [H|H].
  - rewrite Rmin_left by (apply IZR_le; lia). f_equal. lia.
  - rewrite Rmin_right by (apply IZR_le; lia). f_equal. lia.
Qed.

Lemma near_small qf a : near qf a -> (0 <= a < 2 ^ 38)%Z -> 0 <= qf /\ Rabs qf < bpow radix2 53.
Proof.
  intros Hn Ha. pose proof eps_val as Ev.
  assert (Ha' : 0 <= IZR a <= 274877906943) by (split; apply IZR_le; lia).
  change (bpow radix2 53) with (IZR (2 ^ 53)). change (2 ^ 53)%Z with 9007199254740992%Z.
  destruct Hn as [->|Hb]; (split; [lra|rewrite Rabs_pos_eq by lra; lra]).
Qed.

(** truncation of the rounded quotient (drain) *)
Lemma core_floor qf a : near qf a -> Zfloor qf = a.
Proof.
  pose proof eps_val as Ev. intros [->|Hb]; [apply Zfloor_IZR|apply floor_in; lra].
Qed.

(** truncation of max(quotient, integer floor) (back-off) *)
Lemma core_max qf a F : near qf a -> Zfloor (Rmax qf (IZR F)) = Z.max a F.
Proof.
  pose proof eps_val as Ev. intros [->|Hb].
  - rewrite Rmax_IZR. apply Zfloor_IZR.
  - destruct (Z_le_gt_dec F a) as [H|H].
    + assert (IZR F <= IZR a) by (apply IZR_le; lia).
      rewrite Rmax_left by lra. rewrite Z.max_l by lia. apply floor_in. lra.
    + assert (IZR (a + 1) <= IZR F) by (apply IZR_le; lia). rewrite plus_IZR in *.
      rewrite Rmax_right by lra. rewrite Z.max_r by lia. apply Zfloor_IZR.
Qed.

(** the climbing sum: t + max(min(quotient, D), 0), rounded, truncated *)
Lemma core_sum qf (t a D : Z) :
  near qf a -> (0 <= t < 2 ^ 28)%Z -> (0 <= a < 2 ^ 28)%Z ->
  Zfloor (rnd (IZR t + Rmax (Rmin qf (IZR D)) 0)) = (t + Z.max (Z.min a D) 0)%Z /\
  Rabs (rnd (IZR t + Rmax (Rmin qf (IZR D)) 0)) < bpow radix2 53 /\
  0 <= rnd (IZR t + Rmax (Rmin qf (IZR D)) 0).
Proof.
  intros Hn Ht Ha. pose proof eps_val as Ev.
  assert (Hint : forall z : Z, (0 <= z < 2 ^ 34)%Z ->
            Zfloor (rnd (IZR z)) = z /\ Rabs (rnd (IZR z)) < bpow radix2 53 /\ 0 <= rnd (IZR z)).
  { intros z Hz. rewrite rnd_int by lia. split; [apply Zfloor_IZR|].
    split; [apply abs_int_lt; lia|apply IZR_le; lia]. }
  assert (Hcase : Rmax (Rmin qf (IZR D)) 0 = IZR (Z.max (Z.min a D) 0) \/
                  ((a + 1 <= D)%Z /\ IZR a + / 1000 - eps <= qf <= IZR a + 1 - / 1000 + eps)).
  { destruct Hn as [->|Hb].
    - left. change 0 with (IZR 0). rewrite Rmin_IZR, Rmax_IZR. reflexivity.
    - destruct (Z_le_gt_dec D a) as [H|H].
      + left. assert (IZR D <= IZR a) by (apply IZR_le; lia).
        rewrite Rmin_right by lra. change 0 with (IZR 0). rewrite Rmax_IZR. f_equal. lia.
      + right. split; [lia|exact Hb]. }
  destruct Hcase as [E|[HD1 Hb]].
  - rewrite E, <- plus_IZR. apply Hint. lia.
  - assert (IZR (a + 1) <= IZR D) by (apply IZR_le; lia). rewrite plus_IZR in *.
    assert (0 <= IZR a) by (apply IZR_le; lia).
    rewrite Rmin_left by lra. rewrite Rmax_left by lra.
    destruct (floor_rnd_sum t a qf Ht Ha Hb) as [F1 F2].
    split; [rewrite F1; f_equal; lia|]. split; [exact F2|].
    assert (Hz : (0 <= t + a)%Z) by lia.
    pose proof (Zfloor_lb (rnd (IZR t + qf))) as L. rewrite F1 in L.
    apply Rle_trans with (2 := L). apply IZR_le. lia.
Qed.

Local Open Scope Z_scope.

Lemma target_bounds t : MIN_TARGET_BPS <= t <= MAX_TARGET_BPS -> 100000 <= t <= 200000000.
Proof. unfold MIN_TARGET_BPS, MAX_TARGET_BPS. lia. Qed.

Lemma f64_to_u64_int x z : fint x z -> 0 <= z < 2 ^ 64 -> f64_to_u64 x = z.
Proof.
  intros H Hz. rewrite (f64_to_u64_floor x (IZR z) H); [apply Zfloor_IZR|].
  split; [apply IZR_le; lia|apply IZR_lt; lia].
Qed.

Lemma quot_val t pm : 100000 <= t <= 200000000 -> 0 <= pm <= 1000 ->
  exists qf, fval ((z2f t * z2f pm) / 1000)%float qf /\ near qf (t * pm / 1000) /\
             0 <= t * pm / 1000 < 2 ^ 28 /\ (0 <= qf < IZR (2 ^ 64))%R.
Proof.
  intros Ht Hp. exists (rnd (IZR (t * pm) / 1000)).
  assert (HP : 0 <= t * pm < 2 ^ 38) by nia.
  assert (Ha : 0 <= t * pm / 1000 < 2 ^ 28).
  { split; [apply Z.div_pos; lia|]. apply Z.div_lt_upper_bound; nia. }
  pose proof (near_div1000 _ HP) as Hn.
  destruct (near_small _ _ Hn ltac:(lia)) as [H0 Hs].
  split; [|split; [exact Hn|split; [exact Ha|apply small_u64; assumption]]].
  apply div_val; [|exact c_1000|lra|apply small_no_ovf, Hs].
  apply mul_int; [apply z2f_exact; lia|apply z2f_exact; lia|lia].
Qed.

Lemma next_target_f_exact ns ps md t sane :
  MIN_TARGET_BPS <= t <= MAX_TARGET_BPS -> 0 <= sane <= 2 ^ 30 ->
  next_target_f ns ps md t sane = next_target ns ps md t sane.
Proof.
  intros Ht0 Hs. pose proof (target_bounds t Ht0) as Ht.
  assert (Hprev : fint (z2f t) t) by (apply z2f_exact; lia).
  assert (Hid : f64_to_u64 (z2f t) = t) by (apply f64_to_u64_int; [exact Hprev|lia]).
  unfold next_target_f, next_target. cbv zeta.
  destruct ns; try exact Hid.
  - (* Climbing *)
    destruct (0 <? sane) eqn:Epos; [|exact Hid].
    destruct (quot_val t (step_permille md) Ht) as (qf & Hq & Hn & Ha & _);
      [pose proof (step_permille_range md); unfold HAI_STEP_PERMILLE in *; lia|].
    assert (Hcap : fint (z2f sane * 2 - z2f t)%float (sane * 2 - t)).
    { apply sub_int; [apply mul_int; [apply z2f_exact; lia|exact c_2|lia]|exact Hprev|lia]. }
    pose proof (fmax_val _ _ _ _ Hprev (z2f_exact MIN_TARGET_BPS ltac:(unfold MIN_TARGET_BPS; lia))) as Hbase.
    rewrite Rmax_IZR in Hbase.
    pose proof (fmax_val _ _ _ _ (fmin_val _ _ _ _ Hq Hcap) c_zero) as Hm2.
    rewrite (Z.max_l t MIN_TARGET_BPS) in * by lia.
    destruct (core_sum qf t _ (sane * 2 - t) Hn ltac:(lia) Ha) as (S1 & S2 & S3).
    rewrite (f64_to_u64_floor _ _ (add_val _ _ _ _ Hbase Hm2 (small_no_ovf _ S2))); [exact S1|apply small_u64; assumption].
  - (* BackingOff *)
    destruct (quot_val t BACKOFF_PERMILLE Ht) as (qf & Hq & Hn & _ & Hu); [unfold BACKOFF_PERMILLE; lia|].
    assert (Hfl : fval (fmin (z2f sane) (z2f t)) (IZR (Z.min sane t))).
    { rewrite <- Rmin_IZR. apply fmin_val; [apply z2f_exact; lia|exact Hprev]. }
    rewrite (f64_to_u64_floor _ _ (fmax_val _ _ _ _ Hq Hfl)); [apply core_max, Hn|].
    split; [apply Rle_trans with (1 := proj1 Hu); apply Rmax_l|].
    apply Rmax_lub_lt; [apply Hu|apply IZR_lt; lia].
  - (* Drain *)
    destruct (negb (cc_state_eqb ps Drain)); [|exact Hid].
    destruct (quot_val t DRAIN_PERMILLE Ht) as (qf & Hq & Hn & _ & Hu); [unfold DRAIN_PERMILLE; lia|].
    rewrite (f64_to_u64_floor _ _ Hq Hu). apply core_floor, Hn.
Qed.

Lemma sane_observed_f_exact t observed :
  MIN_TARGET_BPS <= t <= MAX_TARGET_BPS -> 0 <= observed ->
  sane_observed_f t observed = sane_observed t observed.
Proof.
  intros Ht0 Ho. pose proof (target_bounds t Ht0) as Ht.
  rewrite sane_observed_eq. unfold sane_observed_f.
  set (b := Z.max t INITIAL_TARGET_BPS).
  assert (Hb : 1000000 <= b <= 200000000) by (unfold b, INITIAL_TARGET_BPS; lia).
  assert (Hcap : fint (FConstants.CC_OUTLIER_FACTOR * z2f b)%float (b * 4)).
  { rewrite Z.mul_comm. apply mul_int; [exact c_outlier|apply z2f_exact; lia|lia]. }
  (* an observation of 2^53 or more is represented by 2^52: either loses against the cap *)
  assert (Hmn : forall o, 0 <= o < 2 ^ 53 ->
            f64_to_u64 (fmin (z2f o) (FConstants.CC_OUTLIER_FACTOR * z2f b)%float) = Z.min o (b * 4)).
  { intros o Hrange. apply f64_to_u64_int; [|lia].
    unfold fint. rewrite <- Rmin_IZR. apply fmin_val; [apply z2f_exact, Hrange|exact Hcap]. }
  unfold u64_to_f64. destruct (observed <? 9007199254740992) eqn:E.
  - apply Hmn. lia.
  - rewrite Hmn by lia. lia.
Qed.

(** On every step of a link satisfying the invariant the f64 rendering and the integer model
    produce the same clamped observation and the same new target. *)
Theorem float_agrees_step s now i : core_inv (k_core s) -> float_agrees s (link_step s now i) i = true.
Proof.
  intros Hinv. pose proof Hinv as (Hrange & _).
  unfold float_agrees.
  destruct (link_step_shape s now i) as [(_ & Ec)|(_ & ns & md & fr & Hns & Ec)];
    rewrite Ec; cbn [c_state c_mode c_target].
  - reflexivity.
  - destruct (cc_state_eqb ns Bootstrap) eqn:E; [destruct ns; cbn in E; congruence|].
    pose proof (f64_to_u64_range (i_bps i)) as Hobs. fold (observed_bps i) in Hobs.
    rewrite sane_observed_f_exact by (try exact Hrange; lia). rewrite Z.eqb_refl. cbn [andb].
    unfold new_target. rewrite next_target_f_exact; [apply Z.eqb_refl| |].
    + unfold seed_target. destruct (negb (c_seeded (k_core s))); [apply clamp_target_range|exact Hrange].
    + pose proof (target_bounds _ Hrange) as Ht.
      rewrite sane_observed_eq. unfold INITIAL_TARGET_BPS. lia.
Qed.
End Exact.
