(** ReconnectP.v — lemmas about ReconnectionState, is_timed_out and the resets. *)
From Coq Require Import ZifyBool.
From Srtla Require Import Base Constants Reconnect.
Local Open Scope Z_scope.

Lemma ssub_ge : forall a b c, 0 < c -> (c <=? ssub a b) = true -> c <= a - b.
Proof. intros a b c Hc H. unfold ssub in H. lia. Qed.

Lemma ssub_of_ge : forall a b c, c <= a - b -> (c <=? ssub a b) = true.
Proof. intros. unfold ssub. lia. Qed.

(** the cap needs no sign premise (the product is clamped, then min'ed) *)
Lemma backoff_cap : forall r, backoff_delay r <= 120000.
Proof. intros r. unfold backoff_delay. change MAX_BACKOFF_DELAY_MS with 120000. lia. Qed.

Lemma pow2_min_bounds : forall n, 0 <= n -> 1 <= 2 ^ Z.min n 5 <= 32.
Proof. intros n H. change 1 with (2 ^ 0). change 32 with (2 ^ 5). split; apply Z.pow_le_mono_r; lia. Qed.

(** the u64 saturation never bites *)
Lemma backoff_closed_form : forall r, 0 <= r_fail r ->
  backoff_delay r = Z.min (5000 * 2 ^ Z.min (r_fail r) 5) 120000.
Proof.
  intros r H. pose proof (pow2_min_bounds (r_fail r) H) as P.
  assert (U : 5000 * 32 <= u64_max) by discriminate.
  unfold backoff_delay, sat_mul_u64, sat_u64, clamp.
  change MAX_BACKOFF_COUNT with 5. change BASE_RECONNECT_DELAY_MS with 5000.
  change MAX_BACKOFF_DELAY_MS with 120000.
  rewrite Z.max_r, (Z.min_r u64_max) by lia. reflexivity.
Qed.

Lemma backoff_bounds : forall r, 0 <= r_fail r -> 5000 <= backoff_delay r <= 120000.
Proof. intros r H. rewrite (backoff_closed_form r H). pose proof (pow2_min_bounds (r_fail r) H). lia. Qed.

Lemma backoff_base : forall r, r_fail r = 0 -> backoff_delay r = 5000.
Proof. intros r F. unfold backoff_delay. rewrite F. reflexivity. Qed.

Lemma backoff_ladder : forall l e g,
  map (fun k => backoff_delay (RC l k e g)) [0; 1; 2; 3; 4; 5; 6; 100] =
  [5000; 10000; 20000; 40000; 80000; 120000; 120000; 120000].
Proof. intros. vm_compute. reflexivity. Qed.

Lemma should_attempt_spacing : forall r now, 0 <= r_fail r ->
  should_attempt r now = true ->
  r_last r = 0 \/ (if r_est r =? 0 then 1000 else 5000) <= now - r_last r.
Proof.
  intros r now Hf H. unfold should_attempt in H.
  change INITIAL_RETRY_CADENCE_MS with 1000 in H.
  destruct (r_est r =? 0) eqn:E.
  - destruct (now <=? r_grace r); [discriminate|].
    destruct (r_last r =? 0) eqn:L; [left; lia|right]. apply ssub_ge in H; lia.
  - destruct (r_last r =? 0) eqn:L; [left; lia|right].
    pose proof (backoff_bounds r Hf). apply ssub_ge in H; lia.
Qed.

Lemma should_attempt_grace : forall r now,
  should_attempt r now = true -> r_est r = 0 -> r_grace r < now.
Proof.
  intros r now H E. unfold should_attempt in H. rewrite E in H. simpl in H.
  destruct (now <=? r_grace r) eqn:G; [discriminate|lia].
Qed.

Lemma should_attempt_due : forall r now, 0 <= r_fail r ->
  (r_est r = 0 -> r_grace r < now) ->
  120000 <= now - r_last r -> should_attempt r now = true.
Proof.
  intros r now Hf Hg H. unfold should_attempt. change INITIAL_RETRY_CADENCE_MS with 1000.
  destruct (r_est r =? 0) eqn:E.
  - assert (now <=? r_grace r = false) as -> by (specialize (Hg ltac:(lia)); lia).
    destruct (r_last r =? 0); [reflexivity|]. apply ssub_of_ge. lia.
  - destruct (r_last r =? 0); [reflexivity|]. apply ssub_of_ge.
    pose proof (backoff_bounds r Hf). lia.
Qed.

Lemma should_attempt_due_base : forall r now, r_fail r = 0 -> r_est r <> 0 ->
  5000 <= now - r_last r -> should_attempt r now = true.
Proof.
  intros r now Hf He H. unfold should_attempt.
  assert (r_est r =? 0 = false) as -> by lia.
  destruct (r_last r =? 0); [reflexivity|]. apply ssub_of_ge.
  rewrite (backoff_base r Hf). lia.
Qed.

Lemma record_attempt_last : forall r now, r_last (record_attempt r now) = now.
Proof. intros. unfold record_attempt. destruct (r_est r =? 0); reflexivity. Qed.
Lemma record_attempt_est : forall r now, r_est (record_attempt r now) = r_est r.
Proof. intros. unfold record_attempt. destruct (r_est r =? 0); reflexivity. Qed.
Lemma record_attempt_fail_nonneg : forall r now, 0 <= r_fail r -> 0 <= r_fail (record_attempt r now).
Proof. intros. unfold record_attempt. destruct (r_est r =? 0); cbn [r_fail]; [assumption|]. unfold sat_add_u32, clamp, two32. lia. Qed.

Lemma timed_out_silent : forall l now, 0 < l_to l -> is_timed_out l now = true ->
  match l_lr l with Some lr => l_to l <= now - lr | None => l_conn l = false end.
Proof.
  intros l now Ht H. unfold is_timed_out, stale in H.
  destruct (l_conn l); cbn [negb] in H;
    [|destruct ((r_est (l_rc l) =? 0) && (now <? r_grace (l_rc l))); [discriminate|]];
    (destruct (l_lr l) as [lr|]; [apply ssub_ge in H; lia|congruence]).
Qed.

Lemma alive_when_heard : forall l now lr, l_conn l = true -> l_lr l = Some lr -> 0 < l_to l -> now - lr < l_to l ->
  is_timed_out l now = false.
Proof. intros l now lr Hc Hl Hp H. unfold is_timed_out. rewrite Hc, Hl. cbn [negb]. unfold ssub. lia. Qed.

Lemma dead_link_timed_out : forall l now, l_conn l = false -> l_lr l = None ->
  (r_est (l_rc l) = 0 -> r_grace (l_rc l) <= now) -> is_timed_out l now = true.
Proof.
  intros l now Hc Hl Hg. unfold is_timed_out, stale. rewrite Hc, Hl. cbn [negb].
  destruct (r_est (l_rc l) =? 0) eqn:E; cbn [andb]; [|reflexivity].
  assert (now <? r_grace (l_rc l) = false) as -> by (specialize (Hg ltac:(lia)); lia). reflexivity.
Qed.

Lemma reg3_link_clean : forall l now,
  let l' := reg3_link l now in
  l_conn l' = true /\ l_lr l' = Some now /\ l_inf l' = 0 /\ l_ph l' = PWarm 0 now /\ l_win l' = WINDOW_DEFAULT /\
  r_fail (l_rc l') = 0 /\ l_gen l' = l_gen l.
Proof. intros. cbv [l' reg3_link l_conn l_lr l_win l_inf l_ph l_gen l_rc r_fail]. tauto. Qed.

Lemma update_phase_reg : forall p lossdeg dg now, update_phase p lossdeg dg now = PReg <-> p = PReg.
Proof.
  intros [|n e| |] lossdeg dg now; cbn [update_phase]; [tauto|destruct (_ <=? _)|destruct (_ || _)|destruct (_ && _)];
    split; discriminate.
Qed.
