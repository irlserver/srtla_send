(** A routing decision is a pure penalty: it writes only guard-private state,
    the refreshed timeout and the quality cache; with the guard off it clears every stall
    flag and decides exactly as on links with no stall history.  Monitor soundness on the
    model's traces. *)
From Coq Require Import Floats ZifyBool.
From Srtla Require Import Base Constants Stall StallSel StallOps Run_Stall Run_C12 StallP BaseP.
Local Open Scope Z_scope.

(** no float axioms needed: [feqb] is structural on [Prim2SF] *)
Lemma sf_eqb_refl : forall a, sf_eqb a a = true.
Proof.
  destruct a; cbn; try apply Bool.eqb_reflx; try reflexivity.
  rewrite Bool.eqb_reflx, Pos.eqb_refl, Z.eqb_refl. reflexivity.
Qed.
Lemma feqb_refl : forall a, feqb a a = true.
Proof. intros. apply sf_eqb_refl. Qed.
Lemma acct_eqb_refl : forall a, acct_eqb a a = true.
Proof.
  intros. unfold acct_eqb. rewrite Bool.eqb_reflx, !Z.eqb_refl, !ozeqb_refl, zlist_eqb_refl. reflexivity.
Qed.
Lemma aux_eqb_refl : forall a, aux_eqb a a = true.
Proof.
  intros. unfold aux_eqb. rewrite !Bool.eqb_reflx, !Z.eqb_refl, feqb_refl. reflexivity.
Qed.

Theorem select_noninterference : forall cfg last now ins ls,
  map la (fst (select cfg last now ins ls)) = map la ls /\
  map lx (fst (select cfg last now ins ls)) = map lx ls.
Proof.
  intros. pose proof (select_decided cfg last now ins ls) as H.
  induction H as [|l l' t t' D _ [IH1 IH2]]; cbn [map]; [auto|].
  rewrite (decided_acct D), (decided_aux D), IH1, IH2. auto.
Qed.

Lemma select_views : forall cfg last now ins ls,
  views_eqb ls (fst (select cfg last now ins ls)) = true.
Proof.
  intros. pose proof (select_decided cfg last now ins ls) as H.
  induction H as [|l l' t t' D _ IH]; cbn; [reflexivity|].
  unfold view_eqb. rewrite (decided_acct D), (decided_aux D), acct_eqb_refl, aux_eqb_refl. exact IH.
Qed.

Lemma gate_guard_counters : forall now cfg a x g,
  let g' := gate_guard now cfg a x g in
  g_events g <= g_events g' <= g_events g + 1 /\ g_pulls g <= g_pulls g' <= g_pulls g + 1.
Proof.
  intros. subst g'. unfold gate_guard. destruct (cf_guard cfg); [|cbn; lia].
  destruct (pull_step_frame a x now (cf_min cfg) (cf_ceil cfg) g) as (b & n & -> & Hn).
  destruct (latch_step_frame a x now (cf_min cfg) (cf_ceil cfg)
              (mkG (g_gated g) (g_latched g) (g_recovery g) (g_events g) (g_probe g) b n)) as (lt & rc & ev & -> & He).
  exact (conj He Hn).
Qed.

Theorem select_counters : forall cfg last now ins ls,
  all2 counters_ok ls (fst (select cfg last now ins ls)) = true.
Proof.
  intros. pose proof (select_decided cfg last now ins ls) as H.
  induction H as [|l l' t t' D _ IH]; cbn; [reflexivity|].
  rewrite IH, andb_true_r. pose proof (decided_guard D) as U. unfold ungate in U. injection U as _ _ E _ _ P.
  pose proof (gate_guard_counters now cfg (la l) (lx l) (lg l)) as [C1 C2]. cbn zeta in *.
  unfold counters_ok. rewrite E, P. lia.
Qed.

Definition off_guard (l l' : link) : Prop := lg l' = guard_off (lg l).

Lemma select_off_guard : forall cfg last now ins ls, cf_guard cfg = false ->
  Forall2 off_guard ls (fst (select cfg last now ins ls)).
Proof.
  intros cfg last now ins ls G.
  apply (Forall2_comp off_guard cache_only off_guard) with (lb := apply_stall_gate now cfg ls);
    [ | | apply select_cache_only].
  - intros a b c E (_ & Hg & _). unfold off_guard in *. congruence.
  - unfold apply_stall_gate. rewrite G. apply Forall2_map_r. intros l.
    unfold off_guard, gate_link, gate_guard. rewrite G. reflexivity.
Qed.

Theorem select_off_clears : forall cfg last now ins ls, cf_guard cfg = false ->
  forallb cleared (fst (select cfg last now ins ls)) = true.
Proof.
  intros cfg last now ins ls G. pose proof (select_off_guard cfg last now ins ls G) as H.
  induction H as [|l l' t t' E _ IH]; cbn [forallb]; [reflexivity|].
  rewrite IH, andb_true_r. unfold cleared. rewrite E. reflexivity.
Qed.

(** The selectors read guard state only through [g_gated]: they commute with any rewriting [h] of
    the guards that keeps that flag on the links at hand. *)
Definition on_guard (h : guard -> guard) (l : link) : link := mkL (la l) (h (lg l)) (lx l) (lc l).
Definition keeps_gated (h : guard -> guard) (l : link) : Prop := g_gated (h (lg l)) = g_gated (lg l).

Section GuardBlind.
Variable h : guard -> guard.

Lemma skipped_blind : forall now l, keeps_gated h l -> skipped now (on_guard h l) = skipped now l.
Proof. intros now l U. unfold skipped, timed_out, schedulable, on_guard. cbn. rewrite U. reflexivity. Qed.

Lemma classic_go_blind : forall now ls i best bs, Forall (keeps_gated h) ls ->
  classic_go now (map (on_guard h) ls) i best bs = classic_go now ls i best bs.
Proof.
  induction ls as [|l t IH]; intros i best bs U; [reflexivity|].
  inversion U; subst. cbn [map classic_go]. rewrite skipped_blind by assumption.
  change (get_score (on_guard h l)) with (get_score l).
  destruct (skipped now l); [apply IH; assumption|].
  destruct (bs <? get_score l); apply IH; assumption.
Qed.

Lemma any_unconstrained_blind : forall now ls ins, Forall (keeps_gated h) ls ->
  any_unconstrained now (map (on_guard h) ls) ins = any_unconstrained now ls ins.
Proof.
  induction ls as [|l t IH]; intros ins U; [reflexivity|].
  inversion U as [|? ? Ul Ut]; subst. cbn [map any_unconstrained]. rewrite IH by assumption.
  unfold unconstrained, timed_out, schedulable, on_guard. cbn. rewrite Ul. reflexivity.
Qed.

Lemma enh_go_blind : forall now quality any last ls ins i acc, Forall (keeps_gated h) ls ->
  enh_go now quality any last (map (on_guard h) ls) ins i acc =
  (map (on_guard h) (fst (enh_go now quality any last ls ins i acc)),
   snd (enh_go now quality any last ls ins i acc)).
Proof.
  induction ls as [|l t IH]; intros ins i acc U; [reflexivity|].
  inversion U; subst. cbn [map enh_go]. rewrite skipped_blind by assumption.
  destruct (skipped now l || (any && si_capx (hd selin0 ins))).
  - rewrite IH by assumption.
    destruct (enh_go now quality any last t (tl ins) (i + 1) acc) as [t' acc']. reflexivity.
  - change (get_score (on_guard h l)) with (get_score l).
    cbn [on_guard la lx lc lg].
    match goal with |- context [enh_go now quality any last (map (on_guard h) t) (tl ins) (i + 1) ?a] =>
      rewrite (IH (tl ins) (i + 1) a) by assumption;
      destruct (enh_go now quality any last t (tl ins) (i + 1) a) as [t' acc'] end.
    reflexivity.
Qed.

Theorem selectors_guard_blind : forall now quality last ins ls, Forall (keeps_gated h) ls ->
  classic_select now (map (on_guard h) ls) = classic_select now ls /\
  enhanced_select now quality last (map (on_guard h) ls) ins =
  (map (on_guard h) (fst (enhanced_select now quality last ls ins)), snd (enhanced_select now quality last ls ins)).
Proof.
  intros now quality last ins ls U. split; [apply classic_go_blind; exact U|].
  unfold enhanced_select. rewrite any_unconstrained_blind, enh_go_blind by exact U.
  destruct (enh_go now quality (any_unconstrained now ls ins) last ls ins 0 (mkE None (-1)%float None)) as [ls' acc].
  reflexivity.
Qed.
End GuardBlind.

(** erasing the stall history keeps the flag of a link that is not gated; after a guard-off gate
    pass no link is, and the pass itself does not look at the history *)
Lemma apply_stall_gate_off_forget : forall now cfg ls, cf_guard cfg = false ->
  apply_stall_gate now cfg (map forget_stall ls) = map forget_stall (apply_stall_gate now cfg ls) /\
  Forall (keeps_gated (fun _ => mkG false 0 0 0 0 false 0)) (apply_stall_gate now cfg ls).
Proof.
  intros now cfg ls G. unfold apply_stall_gate. rewrite G. split.
  - rewrite !map_map. apply map_ext. intros l. unfold gate_link, gate_guard, forget_stall. rewrite G. reflexivity.
  - induction ls; cbn [map]; constructor; auto. unfold keeps_gated, gate_link, gate_guard. rewrite G. reflexivity.
Qed.

Theorem select_off_is_baseline : forall cfg last now ins ls, cf_guard cfg = false ->
  snd (select cfg last now ins (map forget_stall ls)) = snd (select cfg last now ins ls) /\
  fst (select cfg last now ins (map forget_stall ls)) = map forget_stall (fst (select cfg last now ins ls)).
Proof.
  intros cfg last now ins ls G. unfold select.
  destruct (apply_stall_gate_off_forget now cfg ls G) as [E U]. rewrite E.
  destruct (selectors_guard_blind _ now (cf_quality cfg) last ins _ U) as [C N].
  change (map forget_stall) with (map (on_guard (fun _ => mkG false 0 0 0 0 false 0))).
  destruct (cf_classic cfg); [rewrite C | rewrite N]; split; reflexivity.
Qed.

Lemma mon12_step_ok : forall s o, mon12_step (mkT o s (fst (step s o)) (snd (step s o))) (twin_of s o) = 0%N.
Proof.
  intros s o. unfold mon12_step. cbn [t_op t_pre t_post t_res].
  destruct o; try reflexivity. cbn [step twin_of].
  rewrite select_views, select_counters. cbn [first_clause].
  destruct (cf_guard cfg) eqn:G; cbn [orb]; [reflexivity|].
  (* [StallOps.state] is [list link]; under the alias [rewrite] does not find the term *)
  unfold state in *.
  rewrite (select_off_clears cfg last now ins s G).
  destruct (select_off_is_baseline cfg last now ins s G) as [E _]. rewrite E, ozeqb_refl. reflexivity.
Qed.

Theorem monitor12_holds : forall ops s, ok_C12 (trace12 s ops) = true.
Proof.
  intros ops s. unfold ok_C12.
  assert (H : forall k, mon12 (trace12 s ops) k = (0, 0)%N).
  { revert s. induction ops as [|o t IH]; intros s k; [reflexivity|].
    cbn [trace12]. pose proof (mon12_step_ok s o) as M.
    destruct (step s o) as [s' r]. cbn [fst snd] in M. cbn [mon12]. rewrite M. cbn. apply IH. }
  rewrite H. reflexivity.
Qed.

Definition is_select (o : op) : bool := match o with OSelect _ _ _ _ => true | _ => false end.

Theorem decisions_never_touch_view : forall ops s, forallb is_select ops = true ->
  map la (run s ops) = map la s /\ map lx (run s ops) = map lx s.
Proof.
  induction ops as [|o t IH]; intros s H; [auto|].
  cbn [forallb] in H. apply andb_true_iff in H as [Ho Ht]. destruct o; try discriminate.
  cbn [run step]. unfold state in *. destruct (IH (fst (select cfg last now ins s)) Ht) as [A X].
  destruct (select_noninterference cfg last now ins s) as [A' X']. split; congruence.
Qed.
