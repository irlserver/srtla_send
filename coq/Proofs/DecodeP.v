(** DecodeP.v — the serde-derive decoder of Control.v (a left-to-right walk over the
    members with a "seen" state per field) equals the declarative request shape of
    ControlSpec.v (counting members).  *)
From Srtla Require Import Base Json Control ControlSpec.
Local Open Scope string_scope.
Local Open Scope Z_scope.

Section FieldFold.
  Context {A : Type} (K : string) (de : json -> option A).

  Fixpoint fieldfold (cur : option A) (m : list (string * json)) : option (option A) :=
    match m with
    | [] => Some cur
    | (k, v) :: t =>
        if String.eqb k K then
          match cur with
          | None => obind (de v) (fun x => fieldfold (Some x) t)
          | Some _ => None
          end
        else fieldfold cur t
    end.

  Lemma count_key_cons k v t :
    count_key K ((k, v) :: t) = ((if String.eqb k K then 1 else 0) + count_key K t)%nat.
  Proof.
    unfold count_key. cbn [filter fst]. rewrite (String.eqb_sym K k).
    destruct (String.eqb k K); reflexivity.
  Qed.

  Lemma assoc_cons k v t :
    assoc K ((k, v) :: t) = if String.eqb k K then Some v else assoc K t.
  Proof. cbn [assoc]. rewrite (String.eqb_sym K k). reflexivity. Qed.

  Lemma fieldfold_some x m :
    fieldfold (Some x) m = if Nat.eqb (count_key K m) 0 then Some (Some x) else None.
  Proof.
    induction m as [|[k v] t IH]; [reflexivity|].
    cbn [fieldfold]. rewrite count_key_cons. destruct (String.eqb k K); [reflexivity|exact IH].
  Qed.

  Lemma count0_assoc m : count_key K m = 0%nat -> assoc K m = None.
  Proof.
    induction m as [|[k v] t IH]; [reflexivity|].
    rewrite count_key_cons, assoc_cons. destruct (String.eqb k K); [discriminate|exact IH].
  Qed.

  Lemma fieldfold_none m :
    fieldfold None m =
    if Nat.leb (count_key K m) 1 then
      match assoc K m with None => Some None | Some v => option_map Some (de v) end
    else None.
  Proof.
    induction m as [|[k v] t IH]; [reflexivity|].
    cbn [fieldfold]. rewrite count_key_cons, assoc_cons. destruct (String.eqb k K).
    - destruct (de v) as [x|]; cbn [obind option_map].
      + rewrite fieldfold_some. cbn [Nat.add Nat.leb]. destruct (count_key K t); reflexivity.
      + cbn [Nat.add Nat.leb]. destruct (count_key K t); reflexivity.
    - exact IH.
  Qed.
End FieldFold.

Definition req_tuple (r : request) : string * string * json * option json :=
  (rq_jsonrpc r, rq_method r, rq_params r, rq_id r).

Definition join_fields (a b : option (option string)) (c : option (option json)) (d : option (option (option json)))
  : option fields :=
  match a, b, c, d with
  | Some a, Some b, Some c, Some d => Some {| f_jsonrpc := a; f_method := b; f_params := c; f_id := d |}
  | _, _, _, _ => None
  end.

Lemma join_none2 a c d : join_fields a None c d = None.
Proof. destruct a; reflexivity. Qed.
Lemma join_none3 a b d : join_fields a b None d = None.
Proof. destruct a, b; reflexivity. Qed.
Lemma join_none4 a b c : join_fields a b c None = None.
Proof. destruct a, b, c; reflexivity. Qed.

(** A member touches the state of at most one field, so the walk is four independent walks.  In
    each case below the member either fails its own walk (already seen, or undecodable: both
    sides are [None]) or advances it, and the other three walks skip it. *)
Lemma visit_map_split m : forall f,
  visit_map f m =
  join_fields (fieldfold "jsonrpc" as_str (f_jsonrpc f) m) (fieldfold "method" as_str (f_method f) m)
              (fieldfold "params" de_value (f_params f) m) (fieldfold "id" de_id (f_id f) m).
Proof.
  induction m as [|[k v] t IH]; intro f; [destruct f; reflexivity|].
  cbn [visit_map fieldfold]. unfold visit_member.
  destruct (String.eqb k "jsonrpc") eqn:E1.
  { apply String.eqb_eq in E1. subst k. cbn [String.eqb Ascii.eqb Bool.eqb].
    destruct (f_jsonrpc f), v; cbn [obind as_str]; try reflexivity. rewrite IH. reflexivity. }
  destruct (String.eqb k "method") eqn:E2.
  { apply String.eqb_eq in E2. subst k. cbn [String.eqb Ascii.eqb Bool.eqb].
    destruct (f_method f), v; cbn [obind as_str]; try (symmetry; apply join_none2). rewrite IH. reflexivity. }
  destruct (String.eqb k "params") eqn:E3.
  { apply String.eqb_eq in E3. subst k. cbn [String.eqb Ascii.eqb Bool.eqb].
    destruct (f_params f), (de_value v); cbn [obind]; try (symmetry; apply join_none3). rewrite IH. reflexivity. }
  destruct (String.eqb k "id") eqn:E4.
  { apply String.eqb_eq in E4. subst k. cbn [String.eqb Ascii.eqb Bool.eqb].
    destruct (f_id f), (de_id v); cbn [obind]; try (symmetry; apply join_none4). rewrite IH. reflexivity. }
  apply IH.
Qed.

Lemma finish_join a b c d :
  option_map req_tuple (obind (join_fields a b c d) finish_fields) =
  match a, b, c, d with
  | Some (Some v), Some (Some me), Some p, Some i =>
      Some (v, me, match p with Some p => p | None => JNull end, match i with Some i => i | None => None end)
  | _, _, _, _ => None
  end.
Proof. destruct a as [[]|], b as [[]|], c, d; reflexivity. Qed.

Lemma de_id_spec v :
  de_id v = if opt_value_ok (null_is_absent (Some v)) then Some (option_map to_value (null_is_absent (Some v))) else None.
Proof. destruct v; cbn; try reflexivity; unfold de_id; destruct (value_ok _); reflexivity. Qed.

Theorem decode_spec : forall j, option_map req_tuple (decode_request j) = spec_request j.
Proof.
  intros [| | | | |l|m]; try reflexivity.
  - cbn [decode_request spec_request]. unfold visit_seq.
    destruct l as [|[] l]; try reflexivity.
    destruct l as [|[] [|p [|i [|x l]]]]; try reflexivity.
    + cbn [List.length Nat.leb nth_error null_is_absent opt_value_ok andb option_map].
      unfold de_value. destruct (value_ok p); reflexivity.
    + cbn [List.length Nat.leb nth_error opt_value_ok]. unfold de_value.
      destruct (value_ok p); cbn [obind andb]; [|reflexivity].
      rewrite de_id_spec. destruct (opt_value_ok (null_is_absent (Some i))); reflexivity.
  - (* object: the four counts in the order of the specification, then the members *)
    cbn [decode_request spec_request]. rewrite visit_map_split. cbn [no_fields f_jsonrpc f_method f_params f_id].
    rewrite !fieldfold_none.
    destruct (Nat.leb (count_key "jsonrpc" m) 1); [|reflexivity].
    destruct (Nat.leb (count_key "method" m) 1); [|rewrite join_none2; reflexivity].
    destruct (Nat.leb (count_key "params" m) 1); [|rewrite join_none3; reflexivity].
    destruct (Nat.leb (count_key "id" m) 1); [|rewrite join_none4; reflexivity].
    rewrite finish_join. cbn [andb].
    destruct (assoc "jsonrpc" m) as [[]|]; try reflexivity.
    destruct (assoc "method" m) as [[]|]; try reflexivity.
    cbn [as_str option_map].
    destruct (assoc "params" m) as [p|]; cbn [opt_value_ok];
      [unfold de_value; destruct (value_ok p); [|reflexivity]|];
      (destruct (assoc "id" m) as [i|]; [rewrite de_id_spec; destruct (opt_value_ok (null_is_absent (Some i)))|]; reflexivity).
Qed.
