(** Both selectors return an uplink when a usable one exists; the model's own traces
    satisfy the C03 monitor, for every op list. *)
From Coq Require Import ZArith List Bool Lia Floats.
From Srtla Require Import Base BaseP Select Run_Sel Run_C03 SelFloatP SelectP C11P.
Import ListNotations.
Local Open Scope Z_scope.

Lemma enhanced_select_some ls last now q exps :
  Forall wfl ls -> forallb exp_okb exps = true -> existsb (ok_link now) ls = true ->
  exists i, fst (enhanced_select ls last now q exps) = Some i /\ (i < length ls)%nat.
Proof.
  intros Hwf He Hok. rewrite enhanced_select_eq. cbv zeta. cbn [fst].
  set (au := existsb (unconstrained now) ls). set (scs := score_list ls exps au q now).
  destruct (decide last (pick scs last 0 a0)) as [i|] eqn:E.
  - exists i. split; [reflexivity|]. destruct (decide_candidate scs last i E) as (si & Hi).
    apply nths_lt in Hi. unfold scs, score_list in Hi. now rewrite map_exps_length in Hi.
  - exfalso. revert E. apply decide_keeps, pick_hit; [reflexivity|].
    destruct (scorable_exists ls now q Hwf Hok) as (c & Hin & Hs). fold au in Hs.
    destruct (proj1 (map_exps_In (link_score au q now) _ eq_refl ls exps (exps_ok _ He)) c Hin) as (e & Pe & Ho).
    destruct (Hs e Pe) as (s & c' & Es & G). exists s. split; [|exact G].
    unfold link_score in Ho. now rewrite Es in Ho.
Qed.

Theorem select_no_blackout ls last now cfg exps :
  Forall wfl ls -> forallb exp_okb exps = true ->
  existsb (usable_spec now (c_timeout cfg)) ls = true ->
  exists i, fst (select ls last now cfg exps) = Some i /\ (i < length ls)%nat.
Proof.
  intros Hwf He Hu. unfold select.
  pose proof (gate_wf ls now cfg Hwf) as Hwf1.
  pose proof (gate_spares_one ls now cfg Hu) as Hok.
  pose proof (Forall2_length (apply_stall_gate_rel ls now cfg)) as Hlen.
  set (ls1 := apply_stall_gate ls now cfg) in *.
  destruct (c_mode cfg).
  - cbn [fst]. unfold classic_select.
    destruct (classic_loop ls1 now 0 None (-1)) as [r|] eqn:E.
    + exists r. split; [reflexivity|]. apply classic_loop_bound in E; [lia | intros k Ek; discriminate].
    + exfalso. revert E. apply classic_loop_hit; [reflexivity|].
      apply existsb_exists in Hok. destruct Hok as (u & Hin & Hu1). exists u. split; [exact Hin|]. split; [exact Hu1|].
      destruct (ok_link_not_skipped _ _ Hu1) as (_ & Hc).
      rewrite Forall_forall in Hwf1. specialize (Hwf1 u Hin). unfold wfl, wf_linkb in Hwf1.
      apply andb_true_iff in Hwf1. destruct Hwf1 as (Hp & _).
      apply (get_score_range u Hc Hp).
  - rewrite Hlen. now apply enhanced_select_some.
Qed.

Lemma mon_select_model s last now cfg exps :
  Forall wfl s -> forallb exp_okb exps = true ->
  mon_select s now cfg exps (fst (model_select s last now cfg exps)) = 0%N.
Proof.
  intros Hwf He. unfold mon_select, model_select.
  destruct (select s last now cfg exps) as (r, s') eqn:E. cbn [fst o_res].
  destruct (negb _); [reflexivity|].
  destruct (existsb (usable_spec now (c_timeout cfg)) s) eqn:U; [|reflexivity].
  destruct (select_no_blackout s last now cfg exps Hwf He U) as (i & Ei & Hi).
  rewrite E in Ei. cbn [fst] in Ei. subst r.
  apply Nat.ltb_lt in Hi. now rewrite Hi.
Qed.

Lemma model_trace_ok s tr : model_trace s tr -> forall i, fst (mon_from s tr i) = 0%N.
Proof.
  induction 1 as [|s ev tr Hev _ IH]; intros i; [reflexivity|]. cbn [mon_from].
  destruct ev as [ls|k l|last now cfg exps o]; try apply IH.
  destruct Hev as (Hs & He & E). pose proof (mon_select_model s last now cfg exps Hs He) as M.
  rewrite E in M. cbn [fst] in M. rewrite M. apply IH.
Qed.
