(** UplinkP.v — lemmas about Model/Uplink.v: the dispatch is total and equals a
    decoder-free description; what reaches the client; how one uplink datagram moves
    each link's liveness stamp, delivery-proof stamp, packet log and window.
    [is_registration], [is_internal] are the type predicates of the monitor (Run/Run_C09.v). *)
From Srtla Require Import Base Constants BaseP Wire WireSpec WireP Conn ConnP Run_C09.
From Coq Require Import ZifyBool.

(** the keepalive timestamp as a total function (the decoder never fails) *)
Definition ka_ts (d : list Z) : option Z :=
  match extract_keepalive_timestamp d with Ok v => v | _ => None end.
Lemma ka_ts_ok d : extract_keepalive_timestamp d = Ok (ka_ts d).
Proof. unfold ka_ts. destruct (total_extract_keepalive_timestamp d) as [v ->]. reflexivity. Qed.

Lemma ka_ts_some d t : ka_ts d = Some t ->
  10 <= blen d /\ spec_type d = Some SRTLA_TYPE_KEEPALIVE.
Proof.
  unfold ka_ts. destruct (extract_keepalive_timestamp_shape d) as [v ->].
  destruct (10 <=? blen d) eqn:E; [|discriminate]. destruct (spec_type d) as [t'|]; [|discriminate].
  cbn. destruct (t' =? SRTLA_TYPE_KEEPALIVE) eqn:Et; [|discriminate]. intros _. split; [lia|f_equal; lia].
Qed.

Definition ka_accepts (d : list Z) (now : Z) : bool :=
  match ka_ts d with
  | Some t => (0 <? ssub now t) && (ssub now t <=? KA_RTT_CAP_MS)
  | None => false
  end.

(** the arms of process_uplink_packet: a registration reply, SRT ACK, SRT NAK, SRTLA ACK,
    keepalive echo, anything else (data and unknown control types) *)
Inductive kind := KReg (e : reg_event) | KSrtAck | KSrtNak | KSack | KKeepalive | KOther.

Definition kind_of (t : Z) : kind :=
  match reg_classify t with
  | Some e => KReg e
  | None =>
    if t =? SRT_TYPE_ACK then KSrtAck else if t =? SRT_TYPE_NAK then KSrtNak
    else if t =? SRTLA_TYPE_ACK then KSack else if t =? SRTLA_TYPE_KEEPALIVE then KKeepalive else KOther
  end.

Lemma is_registration_kind t : is_registration t = match kind_of t with KReg _ => true | _ => false end.
Proof.
  unfold kind_of, reg_classify, is_registration.
  do 4 (destruct (t =? _); [reflexivity|]). repeat destruct (_ =? _); reflexivity.
Qed.

(** the only place where the type codes have to be pairwise different *)
Lemma is_internal_kind t :
  is_internal t = match kind_of t with KReg _ | KSack | KKeepalive => true | _ => false end.
Proof.
  unfold is_internal. rewrite is_registration_kind. unfold kind_of.
  destruct (reg_classify t); [reflexivity|].
  destruct (t =? SRT_TYPE_ACK) eqn:E1; [unfold SRT_TYPE_ACK, SRTLA_TYPE_ACK, SRTLA_TYPE_KEEPALIVE in *; lia|].
  destruct (t =? SRT_TYPE_NAK) eqn:E2; [unfold SRT_TYPE_NAK, SRTLA_TYPE_ACK, SRTLA_TYPE_KEEPALIVE in *; lia|].
  destruct (t =? SRTLA_TYPE_ACK); [reflexivity|]. destruct (t =? SRTLA_TYPE_KEEPALIVE); reflexivity.
Qed.

Lemma kind_type t :
  match kind_of t with KSack => t = SRTLA_TYPE_ACK | KKeepalive => t = SRTLA_TYPE_KEEPALIVE | _ => True end.
Proof.
  unfold kind_of. destruct (reg_classify t); [exact I|].
  destruct (t =? SRT_TYPE_ACK); [exact I|]. destruct (t =? SRT_TYPE_NAK); [exact I|].
  destruct (t =? SRTLA_TYPE_ACK) eqn:E; [lia|]. destruct (t =? SRTLA_TYPE_KEEPALIVE) eqn:E'; [lia|exact I].
Qed.

(** the four results of process_uplink_packet, without the bounds-checked monad: the arrival
    link, its x-fields, the effects (which depend on the datagram alone) and what the inline
    SRT-ACK fast path sent *)
Definition up_link (c : link) (x : xlink) (w : wd) (now : Z) : link :=
  match spec_type (bytes_of w) with
  | None => c
  | Some t =>
    let c1 := set_conn c (connected c) (Some now) in
    match kind_of t with
    | KReg Reg3 => reg3_link c now
    | KReg RegErr => set_conn c false None
    | KReg _ => c
    | KKeepalive => if waiting x && ka_accepts (bytes_of w) now then set_proof c1 now else c1
    | _ => c1
    end
  end.

Definition up_x (x : xlink) (w : wd) (now : Z) : xlink :=
  match spec_type (bytes_of w) with
  | None => x
  | Some t =>
    match kind_of t with
    | KReg Reg3 => reg3_x x now
    | KKeepalive =>
      if waiting x then
        if ka_accepts (bytes_of w) now then record_rtt_probe (set_waiting x false) else set_waiting x false
      else x
    | _ => x
    end
  end.

Definition up_inc (w : wd) : incoming :=
  let d := bytes_of w in
  match spec_type d with
  | None => inc0
  | Some t =>
    match kind_of t with
    | KSrtAck => {| i_fwd := [w]; i_acks := match spec_parse_srt_ack d with Some v => [v] | None => [] end;
                    i_naks := []; i_sacks := [] |}
    | KSrtNak => {| i_fwd := [w]; i_acks := []; i_naks := spec_parse_srt_nak d; i_sacks := [] |}
    | KSack => {| i_fwd := []; i_acks := []; i_naks := []; i_sacks := spec_parse_srtla_ack d |}
    | KOther => {| i_fwd := [w]; i_acks := []; i_naks := []; i_sacks := [] |}
    | _ => inc0
    end
  end.

Definition up_fast (k : bool) (w : wd) : list wd :=
  match spec_type (bytes_of w) with
  | Some t => match kind_of t with KSrtAck => if k then [w] else [] | _ => [] end
  | None => []
  end.

Theorem process_uplink_packet_spec c x k w now :
  process_uplink_packet c x k w now = Ok (up_link c x w now, up_x x w now, up_inc w, up_fast k w).
Proof.
  unfold process_uplink_packet, up_link, up_x, up_inc, up_fast, kind_of.
  rewrite get_packet_type_spec. cbn [bind].
  destruct (spec_type (bytes_of w)) as [pt|]; [|reflexivity].
  destruct (reg_classify pt) as [[| | |]|]; try reflexivity.
  destruct (pt =? SRT_TYPE_ACK). { rewrite parse_srt_ack_spec. reflexivity. }
  destruct (pt =? SRT_TYPE_NAK). { rewrite parse_srt_nak_spec. reflexivity. }
  destruct (pt =? SRTLA_TYPE_ACK). { rewrite parse_srtla_ack_spec. reflexivity. }
  destruct (pt =? SRTLA_TYPE_KEEPALIVE); [|reflexivity].
  destruct (waiting x); [|reflexivity].
  rewrite ka_ts_ok. cbn [bind andb]. unfold ka_accepts.
  destruct (ka_ts (bytes_of w)) as [t|]; [|reflexivity].
  destruct ((0 <? ssub now t) && (ssub now t <=? KA_RTT_CAP_MS)); reflexivity.
Qed.

(** the datagrams one uplink datagram puts on the client socket: fast path ++ forward list *)
Definition out_of (k : bool) (w : wd) : list wd := up_fast k w ++ (if k then i_fwd (up_inc w) else []).

Lemma out_of_kind k w :
  out_of k w =
  match spec_type (bytes_of w) with
  | Some t => if k then match kind_of t with KSrtAck => [w; w] | KSrtNak | KOther => [w] | _ => [] end else []
  | None => []
  end.
Proof.
  unfold out_of, up_fast, up_inc. destruct (spec_type _) as [t|]; [|destruct k; reflexivity].
  destruct (kind_of t); destruct k; reflexivity.
Qed.

Definition WInv (c : link) : Prop := WINDOW_FLOOR <= window c <= WINDOW_CEIL /\ ovf c = false.

Lemma winv_no_ovf ls : Forall WInv ls -> existsb ovf ls = false.
Proof. induction 1 as [|c ls [_ H] _ IH]; cbn; [reflexivity|]. rewrite H. exact IH. Qed.

Lemma wconsts :
  WINDOW_FLOOR = 1000 /\ WINDOW_CEIL = 60000 /\ WINDOW_DEFAULT = 20000 /\ WINDOW_DECR = 100 /\ WINDOW_INCR = 30 /\
  i32_min = -2147483648 /\ i32_max = 2147483647.
Proof. repeat split; reflexivity. Qed.

(** [evrel now sacks c c']: what process_connection_events may do to one link while it
    handles a datagram whose SRTLA-ACK list is [sacks] *)
Definition evrel (now : Z) (sacks : list Z) (c c' : link) : Prop :=
  cid c' = cid c /\ last_recv c' = last_recv c /\ connected c' = connected c /\
  (forall k, log_mem k (log c') = true -> log_mem k (log c) = true) /\
  (proof c' = proof c \/
   (proof c' = now /\ exists a, In a sacks /\ log_mem (to_i32 a) (log c) = true /\ log_mem (to_i32 a) (log c') = false)) /\
  (WInv c -> WInv c').

Ltac evsplit := unfold evrel; split; [|split; [|split; [|split; [|split]]]].
Ltac cbn_link := cbn [cid last_recv connected log proof window ovf in_flight hwm cg].

Lemma evrel_refl now sacks c : evrel now sacks c c.
Proof. evsplit; auto. Qed.

Lemma evrel_trans now l c c1 c2 : evrel now l c c1 -> evrel now l c1 c2 -> evrel now l c c2.
Proof.
  intros (A1 & A2 & A3 & A4 & A5 & A6) (B1 & B2 & B3 & B4 & B5 & B6). evsplit; try congruence; auto.
  destruct B5 as [B5|(B5 & a & Ha & Hb & Hc)].
  - destruct A5 as [A5|(A5 & a & Ha & Hb & Hc)]; [left; congruence|].
    right. split; [congruence|]. exists a. split; [exact Ha|]. split; [exact Hb|].
    (* a number retired by the first step stays retired: the log only shrinks *)
    destruct (log_mem (to_i32 a) (log c2)) eqn:E; [|reflexivity]. apply B4 in E. congruence.
  - right. split; [exact B5|]. exists a. auto.
Qed.

Lemma evrel_srt_ack now l c a : evrel now l c (handle_srt_ack c a).
Proof.
  unfold handle_srt_ack. destruct (a <=? hwm c); [apply evrel_refl|].
  evsplit; cbn_link; auto.
  intros k. destruct (_ && _); apply log_mem_filter.
Qed.

Lemma evrel_global now l c : evrel now l c (handle_srtla_ack_global c).
Proof.
  unfold handle_srtla_ack_global. destruct (_ && _); [|apply evrel_refl].
  evsplit; cbn_link; auto.
  intros [H1 H2]. pose proof wconsts. unfold WInv, i32_ovf. cbn_link. rewrite H2. split; [lia|].
  cbn [orb]. lia.
Qed.

Lemma ack_classic_inv w inf w' o : ack_classic w inf = (w', o) ->
  WINDOW_FLOOR <= w <= WINDOW_CEIL -> WINDOW_FLOOR <= w' <= WINDOW_CEIL /\ o = false.
Proof.
  unfold ack_classic, i32_ovf. pose proof wconsts. intros E Hw.
  destruct (w <? _); inversion E; subst; split; try lia.
Qed.

Lemma cong_nak_inv g w now g' w' o : cong_nak g w now = (g', w', o) ->
  WINDOW_FLOOR <= w <= WINDOW_CEIL -> WINDOW_FLOOR <= w' <= WINDOW_CEIL /\ o = false.
Proof.
  unfold cong_nak, i32_ovf. pose proof wconsts. intros E Hw.
  destruct (if _ : bool then _ else _) as [b bs]. inversion E; subst. split; lia.
Qed.

(** the record in which both retiring handlers (a NAK, a number-specific SRTLA ACK) end *)
Lemma evrel_retire now sacks c k g w o p :
  (WINDOW_FLOOR <= window c <= WINDOW_CEIL -> WINDOW_FLOOR <= w <= WINDOW_CEIL /\ o = false) ->
  (p = proof c \/ p = now /\ exists a, In a sacks /\ k = to_i32 a /\ log_mem k (log c) = true) ->
  evrel now sacks c {| cid := cid c; connected := connected c; window := w; in_flight := blen (log_remove k (log c));
                       log := log_remove k (log c); hwm := hwm c; last_recv := last_recv c; proof := p; cg := g;
                       ovf := ovf c || o |}.
Proof.
  intros Hw Hp. evsplit; cbn_link; auto.
  - intros k'. rewrite log_mem_remove. intros H. apply andb_prop in H. tauto.
  - destruct Hp as [->|(-> & a & Ha & -> & Hm)]; [left; reflexivity|].
    right. split; [reflexivity|]. exists a. rewrite log_mem_remove, Z.eqb_refl, andb_false_r. auto.
  - intros [Hr Ho]. destruct (Hw Hr) as [Hr' ->]. unfold WInv. cbn_link. rewrite Ho. auto.
Qed.

Lemma evrel_specific now sacks a c cl : In a sacks ->
  evrel now sacks c (fst (handle_srtla_ack_specific c (to_i32 a) cl now)).
Proof.
  intros Ha. unfold handle_srtla_ack_specific. destruct (log_mem (to_i32 a) (log c)) eqn:Em; [|apply evrel_refl].
  (* the enhanced rule takes its window from the classic one *)
  destruct cl; [|unfold ack_enhanced]; destruct (ack_classic _ _) as [w o] eqn:E; cbn [fst];
    (apply evrel_retire; [exact (ack_classic_inv _ _ _ _ E)|right; split; [reflexivity|]; exists a; auto]).
Qed.

Lemma evrel_nak now l c seq : evrel now l c (fst (handle_nak c seq now)).
Proof.
  unfold handle_nak. destruct (log_mem seq (log c)); [|apply evrel_refl].
  destruct (cong_nak _ _ _) as [[g w] o] eqn:E. cbn [fst].
  apply evrel_retire; [exact (cong_nak_inv _ _ _ _ _ _ E)|left; reflexivity].
Qed.

Lemma Forall2_nth {A B} (R : A -> B -> Prop) l l' : Forall2 R l l' ->
  forall i x, nth_error l i = Some x -> exists y, nth_error l' i = Some y /\ R x y.
Proof. apply Forall2_nth_error_l. Qed.

Lemma Forall2_nth_r {A B} (R : A -> B -> Prop) l l' : Forall2 R l l' ->
  forall i y, nth_error l' i = Some y -> exists x, nth_error l i = Some x /\ R x y.
Proof. apply Forall2_nth_error_r. Qed.

Lemma nth_error_upd {A} (f : A -> A) : forall l i c, nth_error l i = Some c -> nth_error (upd i f l) i = Some (f c).
Proof. exact (ConnP.nth_error_upd f). Qed.

Lemma nth_error_upd_other {A} (f : A -> A) : forall l i j, i <> j -> nth_error (upd i f l) j = nth_error l j.
Proof. exact (ConnP.nth_error_upd_other f). Qed.

Lemma find_pos_link id ls idx : find_pos id ls 0 = Some idx -> exists c, nth_error ls idx = Some c /\ cid c = id.
Proof. intros H. apply find_pos_nth in H as (_ & c & Hn & Hc). rewrite Nat.sub_0_r in Hn. eauto. Qed.

Lemma find_pos_map_cid id : forall l l' i, map cid l = map cid l' -> find_pos id l i = find_pos id l' i.
Proof.
  induction l as [|c l IH]; intros [|c' l'] i H; cbn in *; try discriminate; [reflexivity|].
  inversion H as [[H1 H2]]. rewrite H1. destruct (cid c' =? id); [reflexivity|]. apply IH. exact H2.
Qed.

Definition lrel (now : Z) (sacks : list Z) (ls ls' : list link) : Prop := Forall2 (evrel now sacks) ls ls'.

Lemma lrel_refl now l ls : lrel now l ls ls.
Proof. apply Forall2_reflexive. intros; apply evrel_refl. Qed.
Lemma lrel_trans now l a b c : lrel now l a b -> lrel now l b c -> lrel now l a c.
Proof. apply Forall2_trans. intros x y z. apply evrel_trans. Qed.

Lemma lrel_cids now l ls ls' : lrel now l ls ls' -> map cid ls' = map cid ls.
Proof. induction 1 as [|c c' ls ls' H _ IH]; cbn; [reflexivity|]. destruct H as (-> & _). f_equal. exact IH. Qed.

Lemma lrel_length now l ls ls' : lrel now l ls ls' -> length ls' = length ls.
Proof. intros H. symmetry. exact (Forall2_length H). Qed.

Lemma lrel_winv now l ls ls' : lrel now l ls ls' -> Forall WInv ls -> Forall WInv ls'.
Proof.
  induction 1 as [|c c' ls ls' H _ IH]; intros F; [constructor|].
  inversion F; subst. constructor; [|auto]. destruct H as (_ & _ & _ & _ & _ & H). auto.
Qed.

Lemma lrel_srtla_ack_event now sacks ls idx a cl : In a sacks ->
  lrel now sacks ls (srtla_ack_event ls idx (to_i32 a) cl now).
Proof.
  intros Ha. pose proof (step_ltrans {| links := ls; trk := [] |} (OSrtlaAck idx (to_i32 a) cl now)) as H.
  cbn [step links] in H. apply Forall2i_Forall2 with (i := O).
  eapply Forall2i_impl; [|exact H]. cbn [ltrans]. intros _ c c' [->|[->| ->]].
  - apply evrel_refl.
  - apply evrel_global.
  - eapply evrel_trans; [apply evrel_specific, Ha|apply evrel_global].
Qed.

Lemma lrel_first_hit_nak now l ls seq skip i :
  lrel now l ls (fst (first_hit (fun x => handle_nak x seq now) skip i ls)).
Proof.
  apply Forall2i_Forall2 with (i := i).
  eapply Forall2i_impl; [|apply first_hit_rel]. cbn. intros _ c c' [->|(_ & -> & _)].
  - apply evrel_refl.
  - apply evrel_nak.
Qed.

Lemma lrel_attribute_nak2 now l ls t n : lrel now l ls (attribute_nak2 ls t n now).
Proof.
  unfold attribute_nak2.
  destruct (trk_get t n now) as [id|]; [|apply lrel_first_hit_nak].
  destruct (find_pos id ls 0) as [pos|]; [|apply lrel_first_hit_nak].
  destruct (nth_error ls pos) as [c|]; [|apply lrel_refl].
  destruct (snd (handle_nak c (to_i32 n) now)); [|apply lrel_refl].
  apply Forall2_upd; [intro; apply evrel_refl|intros; apply evrel_nak].
Qed.

Lemma lrel_apply_srt_acks now l acks : forall ls, lrel now l ls (apply_srt_acks ls acks).
Proof.
  unfold apply_srt_acks. induction acks as [|a acks IH]; intros ls; cbn [fold_left]; [apply lrel_refl|].
  eapply lrel_trans; [|apply IH]. apply Forall2_map_r. intros c. apply evrel_srt_ack.
Qed.

Lemma lrel_apply_naks now l t naks : forall ls, lrel now l ls (apply_naks ls t now naks).
Proof.
  unfold apply_naks. induction naks as [|a naks IH]; intros ls; cbn [fold_left]; [apply lrel_refl|].
  eapply lrel_trans; [|apply IH]. apply lrel_attribute_nak2.
Qed.

Lemma lrel_apply_srtla_acks now idx cl sacks : forall l ls, (forall a, In a l -> In a sacks) ->
  lrel now sacks ls (apply_srtla_acks ls idx cl now l).
Proof.
  unfold apply_srtla_acks. induction l as [|a l IH]; intros ls Hs; cbn [fold_left]; [apply lrel_refl|].
  eapply lrel_trans; [|apply IH; intros; apply Hs; right; assumption].
  apply lrel_srtla_ack_event, Hs. left; reflexivity.
Qed.

Theorem events_rel ls t idx cl now inc k :
  lrel now (i_sacks inc) ls (fst (process_connection_events ls t idx cl now inc k)).
Proof.
  unfold process_connection_events. cbn [fst].
  eapply lrel_trans; [apply lrel_apply_srt_acks|].
  eapply lrel_trans; [|apply lrel_apply_naks].
  apply (lrel_apply_srtla_acks now idx cl (i_sacks inc) (i_sacks inc)). intros a H; exact H.
Qed.

Lemma up_link_cid c x w now : cid (up_link c x w now) = cid c.
Proof.
  unfold up_link. destruct (spec_type _) as [t|]; [|reflexivity].
  destruct (kind_of t) as [[]| | | | |]; try destruct (_ && _); reflexivity.
Qed.

Lemma up_link_winv c x w now : WInv c -> WInv (up_link c x w now).
Proof.
  unfold up_link, WInv. intros [Hw Ho]. pose proof wconsts.
  destruct (spec_type _) as [t|]; [|auto].
  destruct (kind_of t) as [[]| | | | |]; try destruct (_ && _); cbn [window ovf reg3_link set_conn set_proof];
    split; assumption || lia.
Qed.

Lemma up_link_last_recv c x w now t :
  spec_type (bytes_of w) = Some t -> is_registration t = false -> last_recv (up_link c x w now) = Some now.
Proof.
  intros Ht Hr. rewrite is_registration_kind in Hr. unfold up_link. rewrite Ht.
  destruct (kind_of t); try discriminate; try destruct (_ && _); reflexivity.
Qed.

Lemma up_inc_sacks w :
  i_sacks (up_inc w) = [] \/
  spec_type (bytes_of w) = Some SRTLA_TYPE_ACK /\ i_sacks (up_inc w) = spec_parse_srtla_ack (bytes_of w).
Proof.
  unfold up_inc. destruct (spec_type (bytes_of w)) as [t|]; [|left; reflexivity].
  pose proof (kind_type t) as K. destruct (kind_of t); try (left; reflexivity).
  right. rewrite K. split; reflexivity.
Qed.

Lemma up_link_proof c x w now :
  proof (up_link c x w now) = proof c \/
  proof (up_link c x w now) = now /\ spec_type (bytes_of w) = Some SRTLA_TYPE_KEEPALIVE /\ waiting x = true /\
  ka_accepts (bytes_of w) now = true.
Proof.
  unfold up_link. destruct (spec_type (bytes_of w)) as [t|]; [|left; reflexivity].
  pose proof (kind_type t) as K. destruct (kind_of t) as [[]| | | | |]; try (left; reflexivity).
  destruct (waiting x); [destruct (ka_accepts _ _)|]; try (left; reflexivity).
  right. rewrite K. repeat split.
Qed.

Definition post_links (s : ustate) (idx : nat) (c : link) (x : xlink) (w : wd) (now : Z) (cl : bool) : list link :=
  fst (process_connection_events (upd idx (fun _ => up_link c x w now) (links (core s))) (trk (core s)) idx cl now
                                 (up_inc w) (client s)).

Definition handled (s : ustate) (idx : nat) (c : link) (x : xlink) (w : wd) (now : Z) (cl : bool)
  : ustate * list wd * bool :=
  ({| core := {| links := post_links s idx c x w now cl; trk := trk (core s) |};
      xs := upd idx (fun _ => up_x x w now) (xs s); client := client s |},
   out_of (client s) w,
   negb (existsb ovf (links (core s))) && existsb ovf (post_links s idx c x w now cl)).

Lemma handle_uplink_cases s id w now cl :
  handle_uplink s id w now cl = (s, [], false) \/
  exists idx c x, find_pos id (links (core s)) 0 = Some idx /\
    nth_error (links (core s)) idx = Some c /\ nth_error (xs s) idx = Some x /\
    handle_uplink s id w now cl =
    handled s idx c x w now cl.
Proof.
  unfold handle_uplink. destruct (bytes_of w); [left; reflexivity|].
  destruct (find_pos id (links (core s)) 0) as [idx|] eqn:Ef; [|left; reflexivity].
  destruct (find_pos_link _ _ _ Ef) as (c & Hc & _). rewrite Hc.
  destruct (nth_error (xs s) idx) as [x|] eqn:Ex; [|left; reflexivity].
  right. exists idx, c, x. rewrite process_uplink_packet_spec. repeat split; assumption || reflexivity.
Qed.

Lemma handle_uplink_at s id w now cl idx t :
  find_pos id (links (core s)) 0 = Some idx -> (idx < length (xs s))%nat -> spec_type (bytes_of w) = Some t ->
  exists c x, nth_error (links (core s)) idx = Some c /\
    handle_uplink s id w now cl =
    handled s idx c x w now cl.
Proof.
  intros Hf Hx Ht. destruct (find_pos_link _ _ _ Hf) as (c & Hc & _).
  destruct (nth_error (xs s) idx) as [x|] eqn:Ex; [|apply nth_error_None in Ex; lia].
  exists c, x. split; [exact Hc|]. unfold handle_uplink. rewrite Hf, Hc, Ex, process_uplink_packet_spec.
  destruct (bytes_of w); [discriminate Ht|reflexivity].
Qed.

Theorem uplink_relay s id w now cl idx t :
  client s = true -> find_pos id (links (core s)) 0 = Some idx -> (idx < length (xs s))%nat ->
  spec_type (bytes_of w) = Some t -> is_internal t = false ->
  snd (fst (handle_uplink s id w now cl)) = [w] \/ snd (fst (handle_uplink s id w now cl)) = [w; w].
Proof.
  intros Hk Hf Hx Ht Hi. destruct (handle_uplink_at s id w now cl idx t Hf Hx Ht) as (c & x & _ & ->).
  cbn [fst snd handled]. rewrite out_of_kind, Ht, Hk. rewrite is_internal_kind in Hi.
  destruct (kind_of t); try discriminate; auto.
Qed.

Lemma uplink_delivers s id w now cl :
  snd (fst (handle_uplink s id w now cl)) = [] \/ snd (fst (handle_uplink s id w now cl)) = out_of (client s) w.
Proof.
  destruct (handle_uplink_cases s id w now cl) as [->|(idx & c & x & _ & _ & _ & ->)]; [left|right]; reflexivity.
Qed.

Theorem uplink_only_the_datagram s id w now cl :
  Forall (fun y => y = w) (snd (fst (handle_uplink s id w now cl))).
Proof.
  destruct (uplink_delivers s id w now cl) as [-> | ->]; [constructor|].
  rewrite out_of_kind. destruct (spec_type _) as [t|]; [|constructor].
  destruct (client s); [|constructor]. destruct (kind_of t); repeat constructor.
Qed.

Theorem uplink_internal_never_relayed s id w now cl t :
  spec_type (bytes_of w) = Some t -> is_internal t = true -> snd (fst (handle_uplink s id w now cl)) = [].
Proof.
  intros Ht Hi. destruct (uplink_delivers s id w now cl) as [-> | ->]; [reflexivity|].
  rewrite out_of_kind, Ht. rewrite is_internal_kind in Hi.
  destruct (client s); [|reflexivity]. destruct (kind_of t); try discriminate; reflexivity.
Qed.

Theorem uplink_short_noop s id w now cl :
  blen (bytes_of w) < 2 -> handle_uplink s id w now cl = (s, [], false).
Proof.
  intros Hl.
  destruct (handle_uplink_cases s id w now cl) as [->|(idx & c & x & _ & Hc & Hx & ->)]; [reflexivity|].
  assert (Hn : spec_type (bytes_of w) = None).
  { rewrite spec_type_nth. destruct (blen (bytes_of w) <? 2) eqn:E; [reflexivity|lia]. }
  unfold handled, post_links, out_of, up_link, up_x, up_inc, up_fast, process_connection_events. rewrite Hn.
  cbn [fst snd i_fwd inc0 i_acks i_sacks i_naks apply_srt_acks apply_srtla_acks apply_naks fold_left].
  rewrite (upd_same c _ _ Hc), (upd_same x _ _ Hx).
  destruct s as [[ls tr] xs0 k0]; cbn [core links trk xs client].
  destruct (existsb ovf ls); destruct k0; reflexivity.
Qed.

(** the dispatch acts on the arrival link, then the fan-out on every link *)
Lemma post_links_lrel s idx c x w now cl : nth_error (links (core s)) idx = Some c ->
  lrel now (i_sacks (up_inc w)) (upd idx (fun a => up_link a x w now) (links (core s))) (post_links s idx c x w now cl).
Proof. intros Hc. rewrite <- (upd_const (fun a => up_link a x w now) _ _ _ Hc). apply events_rel. Qed.

Lemma handle_uplink_length s id w now cl :
  let s' := fst (fst (handle_uplink s id w now cl)) in
  length (links (core s')) = length (links (core s)) /\ length (xs s') = length (xs s).
Proof.
  destruct (handle_uplink_cases s id w now cl) as [->|(idx & c & x & _ & Hc & _ & ->)]; [split; reflexivity|].
  cbn [fst handled core links xs].
  rewrite (lrel_length _ _ _ _ (post_links_lrel s idx c x w now cl Hc)), !upd_length. split; reflexivity.
Qed.

Theorem uplink_liveness_stamp s id w now cl idx t :
  find_pos id (links (core s)) 0 = Some idx -> (idx < length (xs s))%nat ->
  spec_type (bytes_of w) = Some t -> is_registration t = false ->
  exists c', nth_error (links (core (fst (fst (handle_uplink s id w now cl))))) idx = Some c' /\
             last_recv c' = Some now.
Proof.
  intros Hf Hx Ht Hr. destruct (handle_uplink_at s id w now cl idx t Hf Hx Ht) as (c & x & Hc & ->).
  cbn [fst snd handled core links].
  destruct (Forall2_nth _ _ _ (post_links_lrel s idx c x w now cl Hc) idx _ (nth_error_upd _ _ _ _ Hc))
    as (c' & Hn & _ & He & _).
  exists c'. split; [exact Hn|]. rewrite He. exact (up_link_last_recv c x w now t Ht Hr).
Qed.

(** delivery proof: the stamp of link j moves only to [now], and only because an SRTLA ACK
    named a number that was in j's packet log and has been retired from it (earned), or —
    on the arrival link — a keepalive echo was accepted while the link awaited one *)
Definition proof_rel (s : ustate) (id : Z) (w : wd) (now : Z) (j : nat) (c c' : link) : Prop :=
  let d := bytes_of w in
  proof c' = proof c \/
  (proof c' = now /\
   ((spec_type d = Some SRTLA_TYPE_ACK /\
     exists a, In a (spec_parse_srtla_ack d) /\ log_mem (to_i32 a) (log c) = true /\ log_mem (to_i32 a) (log c') = false) \/
    (spec_type d = Some SRTLA_TYPE_KEEPALIVE /\ find_pos id (links (core s)) 0 = Some j /\
     (exists x, nth_error (xs s) j = Some x /\ waiting x = true) /\ ka_accepts d now = true))).

Theorem uplink_proof_only_earned s id w now cl :
  Forall2i (proof_rel s id w now) 0 (links (core s)) (links (core (fst (fst (handle_uplink s id w now cl))))).
Proof.
  destruct (handle_uplink_cases s id w now cl) as [->|(idx & c & x & Hf & Hc & Hx & ->)].
  { cbn [fst]. apply Forall2i_refl. intros; left; reflexivity. }
  cbn [fst snd handled core links].
  (* link j first goes through the dispatch (j = idx) or is left alone, then through the fan-out *)
  eapply Forall2i_impl; [|eapply Forall2i_Forall2_comp; [apply upd_rel|apply (post_links_lrel s idx c x w now cl Hc)]].
  cbn beta. intros j a b' (b & Hb & _ & _ & _ & _ & Hp & _). unfold proof_rel. cbv zeta.
  destruct (up_inc_sacks w) as [Hs|[Ht Hs]]; rewrite Hs in Hp.
  - (* no numbers for the fan-out: the stamp is what the dispatch left *)
    destruct Hp as [->|(_ & a0 & [] & _)].
    destruct Hb as [[-> ->]|[_ ->]]; [|left; reflexivity].
    destruct (up_link_proof a x w now) as [Hp|(Hp & Ht & Hw & Hka)]; [left; exact Hp|].
    right. split; [exact Hp|]. right. repeat split; eauto.
  - (* an SRTLA ACK: the dispatch keeps stamp and log of the arrival link *)
    assert (Hsame : proof b = proof a /\ log b = log a).
    { destruct Hb as [[_ ->]|[_ ->]]; [unfold up_link; rewrite Ht|]; split; reflexivity. }
    destruct Hsame as [E1 E2]. rewrite E1, E2 in Hp.
    destruct Hp as [Hp|(Hp & Hex)]; [left; exact Hp|]. right. split; [exact Hp|]. left. split; [exact Ht|exact Hex].
Qed.

Definition SInv (ids : list Z) (s : ustate) : Prop :=
  map cid (links (core s)) = ids /\ length (xs s) = length (links (core s)) /\ Forall WInv (links (core s)).

Theorem uplink_preserves s id w now cl ids : SInv ids s ->
  SInv ids (fst (fst (handle_uplink s id w now cl))) /\
  client (fst (fst (handle_uplink s id w now cl))) = client s /\
  snd (handle_uplink s id w now cl) = false.
Proof.
  intros (Hids & Hlen & Hw). generalize (handle_uplink_length s id w now cl).
  destruct (handle_uplink_cases s id w now cl) as [->|(idx & c & x & _ & Hc & _ & ->)].
  { intros _. cbn [fst snd handled]. repeat split; auto. }
  cbn [fst snd handled core links xs client]. intros [L1 L2].
  pose proof (post_links_lrel s idx c x w now cl Hc) as Hr.
  assert (Hw' : Forall WInv (post_links s idx c x w now cl)).
  { apply (lrel_winv _ _ _ _ Hr), Forall_upd; [exact Hw|intro; apply up_link_winv]. }
  split; [|split; [reflexivity|]].
  - unfold SInv. cbn [core links xs]. split; [|split; [|exact Hw']].
    + rewrite (lrel_cids _ _ _ _ Hr), map_upd; [exact Hids|intro; apply up_link_cid].
    + rewrite L1, L2. exact Hlen.
  - rewrite (winv_no_ovf _ Hw'). apply andb_false_r.
Qed.
