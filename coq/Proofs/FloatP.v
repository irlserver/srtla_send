(** Order reasoning about Coq primitive floats through Flocq's bridge (Flocq.IEEE754.PrimFloat):
    comparisons of floats other than NaN as real comparisons of their [key]s, monotonicity of [*]
    and [-] between float bounds, non-NaN division, integer-to-float conversion.
    Everything is phrased with the *boolean* float comparisons so that closed side
    conditions on constants are discharged by [vm_compute].

    Axioms reached through these lemmas (all from the standard library / Flocq, none declared
    here).  FloatAxioms.* alone: [ffin_b], [ffin_not_nan], [ltb_compare], [leb_compare],
    [compare_some], [ltb_not_nan], [ltb_nan_r], [fle_not_nan], [fle_not_nan_l], [fle_not_nan_r],
    [ltb_fle], [bra_opp], [opp_mul_l], [is_nan_opp], which stand first.  Every other lemma reads the order off [key] or computes with
    real values, and rests also on Classical_Prop.classic, ClassicalDedekindReals.sig_forall_dec,
    sig_not_dec and FunctionalExtensionality.functional_extensionality_dep; [ofZ_R] and what
    follows it add the Uint63 specification axioms (Uint63.*_spec, of_to_Z, eqb_refl,
    eqb_correct).
    A file that uses [ltb_key] or [leb_key] needs [From Flocq Require Import Core] for
    [Rlt_bool_spec] and [Rle_bool_spec]. *)
From Coq Require Import ZArith Reals Floats Lra Lia Bool.
Notation flt := PrimFloat.float (only parsing).
From Flocq Require Import Core BinarySingleNaN PrimFloat.
Local Open Scope R_scope.

Definition FR (x : flt) : R := B2R (Prim2B x).
Definition ffin (x : flt) : Prop := is_finite (Prim2B x) = true.
Definition fle (x y : flt) : Prop := (x <=? y)%float = true.

Notation rnd := (round radix2 (fexp prec emax) (round_mode mode_NE)).

Lemma ffin_b x : ffin x <-> PrimFloat.is_finite x = true.
Proof. unfold ffin. now rewrite is_finite_equiv. Qed.

Lemma ffin_not_nan x : ffin x -> PrimFloat.is_nan x = false.
Proof.
  unfold ffin. rewrite is_nan_equiv. now destruct (Prim2B x).
Qed.

Lemma ltb_compare x y :
  (x <? y)%float = match Bcompare (Prim2B x) (Prim2B y) with Some Lt => true | _ => false end.
Proof. now rewrite ltb_equiv. Qed.
Lemma leb_compare x y :
  (x <=? y)%float = match Bcompare (Prim2B x) (Prim2B y) with Some (Lt | Eq) => true | _ => false end.
Proof. now rewrite leb_equiv. Qed.

(** a comparison that has an outcome had no NaN operand; proved on the constructors, not through
    [compare_key], which would bring in the axioms of the reals *)
Lemma compare_some x y c :
  Bcompare (Prim2B x) (Prim2B y) = Some c -> PrimFloat.is_nan x = false /\ PrimFloat.is_nan y = false.
Proof.
  rewrite !is_nan_equiv. unfold Bcompare, SFcompare.
  now destruct (Prim2B x) as [| | |], (Prim2B y) as [| | |].
Qed.
Lemma ltb_not_nan x y : (x <? y)%float = true -> PrimFloat.is_nan x = false /\ PrimFloat.is_nan y = false.
Proof. rewrite ltb_compare. destruct (Bcompare _ _) eqn:E; [intros _; exact (compare_some _ _ _ E)|discriminate]. Qed.
Lemma ltb_nan_r x y : PrimFloat.is_nan y = true -> (x <? y)%float = false.
Proof.
  intros N. destruct (x <? y)%float eqn:E; [|reflexivity]. apply ltb_not_nan in E. destruct E. congruence.
Qed.
Lemma fle_not_nan x y : fle x y -> PrimFloat.is_nan x = false /\ PrimFloat.is_nan y = false.
Proof.
  unfold fle. rewrite leb_compare. destruct (Bcompare _ _) eqn:E; [intros _; exact (compare_some _ _ _ E)|discriminate].
Qed.
Lemma fle_not_nan_l x y : fle x y -> PrimFloat.is_nan x = false.
Proof. apply fle_not_nan. Qed.
Lemma fle_not_nan_r x y : fle x y -> PrimFloat.is_nan y = false.
Proof. apply fle_not_nan. Qed.

Lemma ltb_fle a b : (a <? b)%float = true -> fle a b.
Proof. unfold fle. rewrite ltb_compare, leb_compare. now destruct (Bcompare _ _) as [[| |]|]. Qed.

Lemma bra_opp p em s m e l :
  SpecFloat.binary_round_aux p em (negb s) m e l = SFopp (SpecFloat.binary_round_aux p em s m e l).
Proof.
  unfold SpecFloat.binary_round_aux.
  destruct (SpecFloat.shr_fexp p em m e l) as (mrs', e').
  destruct (SpecFloat.shr_fexp p em _ e' SpecFloat.loc_Exact) as (mrs'', e'').
  destruct (SpecFloat.shr_m mrs''); try reflexivity.
  now destruct (Zle_bool e'' (em - p)).
Qed.

Lemma opp_mul_l x y : (- x * y)%float = (- (x * y))%float.
Proof.
  apply Prim2SF_inj. rewrite mul_spec, !opp_spec, mul_spec.
  destruct (Prim2SF x) as [sx|sx| |sx mx ex], (Prim2SF y) as [sy|sy| |sy my ey]; cbn; try reflexivity;
  try (now destruct sx, sy).
  replace (xorb (negb sx) sy) with (negb (xorb sx sy)) by now destruct sx, sy.
  apply bra_opp.
Qed.

Lemma is_nan_opp x : PrimFloat.is_nan (- x)%float = PrimFloat.is_nan x.
Proof. rewrite !is_nan_equiv, opp_equiv. apply is_nan_Bopp. Qed.

Lemma FR_lt_emax x : Rabs (FR x) < bpow radix2 emax.
Proof. apply abs_B2R_lt_emax. Qed.

(** [key] embeds the floats other than NaN into the reals, in order ([compare_key]): the infinities sit
    at the two ends of the finite range.  Every order fact below is read off it. *)
Definition key (x : flt) : R :=
  match Prim2B x with
  | B754_infinity s => if s then - bpow radix2 emax else bpow radix2 emax
  | b => B2R b
  end.

Lemma key_fin x : ffin x -> key x = FR x.
Proof. unfold ffin, key, FR. now destruct (Prim2B x). Qed.

Lemma compare_key x y :
  Bcompare (Prim2B x) (Prim2B y) =
  if PrimFloat.is_nan x || PrimFloat.is_nan y then None else Some (Rcompare (key x) (key y)).
Proof.
  rewrite !is_nan_equiv. unfold key.
  pose proof (FR_lt_emax x) as Bx. pose proof (FR_lt_emax y) as By. unfold FR in Bx, By.
  apply Rabs_def2 in Bx, By. pose proof (bpow_gt_0 radix2 emax) as P.
  destruct (Prim2B x) as [sx|sx| |sx mx ex Hx], (Prim2B y) as [sy|sy| |sy my ey Hy]; cbn [is_nan orb];
    try reflexivity; try (apply Bcompare_correct; reflexivity);
    destruct sx; try destruct sy; unfold Bcompare; cbn [SFcompare B2SF]; apply f_equal; symmetry;
    (apply Rcompare_Lt + apply Rcompare_Gt + apply Rcompare_Eq); lra.
Qed.

Lemma ltb_key x y :
  PrimFloat.is_nan x = false -> PrimFloat.is_nan y = false -> (x <? y)%float = Rlt_bool (key x) (key y).
Proof. intros Nx Ny. now rewrite ltb_compare, compare_key, Nx, Ny. Qed.
Lemma leb_key x y :
  PrimFloat.is_nan x = false -> PrimFloat.is_nan y = false -> (x <=? y)%float = Rle_bool (key x) (key y).
Proof.
  intros Nx Ny. rewrite leb_compare, compare_key, Nx, Ny. unfold Rle_bool. now destruct (Rcompare _ _).
Qed.

Lemma fle_key x y : fle x y -> key x <= key y.
Proof.
  intros H. destruct (fle_not_nan _ _ H) as (Nx & Ny). unfold fle in H. rewrite leb_key in H by assumption.
  revert H. now case Rle_bool_spec.
Qed.
Lemma key_fle x y : PrimFloat.is_nan x = false -> PrimFloat.is_nan y = false -> key x <= key y -> fle x y.
Proof. intros Nx Ny H. unfold fle. rewrite leb_key by assumption. now apply Rle_bool_true. Qed.

Lemma ffin_key x : PrimFloat.is_nan x = false -> Rabs (key x) < bpow radix2 emax -> ffin x.
Proof.
  rewrite is_nan_equiv. unfold ffin, key. destruct (Prim2B x) as [s|s| |s m e H]; try easy.
  intros _ H. exfalso. pose proof (bpow_gt_0 radix2 emax). apply Rabs_def2 in H. destruct s; lra.
Qed.

Lemma leb_R x y : ffin x -> ffin y -> (x <=? y)%float = Rle_bool (FR x) (FR y).
Proof. intros Fx Fy. rewrite leb_key, !key_fin; auto using ffin_not_nan. Qed.
Lemma ltb_R x y : ffin x -> ffin y -> (x <? y)%float = Rlt_bool (FR x) (FR y).
Proof. intros Fx Fy. rewrite ltb_key, !key_fin; auto using ffin_not_nan. Qed.

Lemma fle_R x y : ffin x -> ffin y -> (fle x y <-> FR x <= FR y).
Proof.
  intros Hx Hy. unfold fle. rewrite leb_R by assumption.
  case Rle_bool_spec; intros; split; intros; try easy; lra.
Qed.

Lemma fle_trans a b c : fle a b -> fle b c -> fle a c.
Proof.
  intros H1 H2. apply key_fle; [apply (fle_not_nan _ _ H1) | apply (fle_not_nan _ _ H2)|].
  apply fle_key in H1, H2. lra.
Qed.

Lemma fle_fin_between a x b : ffin a -> ffin b -> fle a x -> fle x b -> ffin x.
Proof.
  intros Fa Fb H1 H2. apply ffin_key; [apply (fle_not_nan _ _ H2)|].
  apply fle_key in H1, H2. rewrite (key_fin a Fa) in H1. rewrite (key_fin b Fb) in H2.
  pose proof (FR_lt_emax a) as Ba. pose proof (FR_lt_emax b) as Bb. apply Rabs_def2 in Ba, Bb.
  apply Rabs_def1; lra.
Qed.

Lemma not_ltb_fle a b :
  PrimFloat.is_nan a = false -> PrimFloat.is_nan b = false -> (a <? b)%float = false -> fle b a.
Proof.
  intros Na Nb. rewrite ltb_key by assumption. case Rlt_bool_spec; [easy|]. intros H _. now apply key_fle.
Qed.

Lemma fle_refl a : PrimFloat.is_nan a = false -> fle a a.
Proof. intros N. apply key_fle; auto. apply Rle_refl. Qed.

Lemma ltb_irrefl x : (x <? x)%float = false.
Proof.
  destruct (PrimFloat.is_nan x) eqn:N; [now apply ltb_nan_r|].
  rewrite ltb_key by assumption. apply Rlt_bool_false. lra.
Qed.

Lemma ltb_trans_neg a b c :
  (a <? b)%float = true -> (a <? c)%float = false -> (b <? c)%float = false.
Proof.
  intros H. destruct (ltb_not_nan _ _ H) as (Na & Nb).
  destruct (PrimFloat.is_nan c) eqn:Nc; [intros _; now apply ltb_nan_r|].
  revert H. rewrite !ltb_key by assumption. do 3 case Rlt_bool_spec; try easy. intros; lra.
Qed.

Lemma fin_squeeze a x b : ffin b -> fle 0%float a -> fle a x -> fle x b -> ffin x /\ ffin a.
Proof.
  intros Fb A0 A1 A2. assert (F0 : ffin 0%float) by reflexivity.
  split; [apply (fle_fin_between 0%float x b) | apply (fle_fin_between 0%float a b)]; eauto using fle_trans.
Qed.

Lemma ltb_fle_trans a b c : (a <? b)%float = true -> fle b c -> (a <? c)%float = true.
Proof.
  intros H1 H2. destruct (ltb_not_nan _ _ H1) as (Na & Nb). pose proof (fle_not_nan_r _ _ H2) as Nc.
  apply fle_key in H2. revert H1. rewrite !ltb_key by assumption.
  case Rlt_bool_spec; [|easy]. intros H1 _. apply Rlt_bool_true. lra.
Qed.

Lemma fle_ltb_trans a b c : fle a b -> (b <? c)%float = true -> (a <? c)%float = true.
Proof.
  intros H1 H2. destruct (ltb_not_nan _ _ H2) as (Nb & Nc). pose proof (fle_not_nan_l _ _ H1) as Na.
  apply fle_key in H1. revert H2. rewrite !ltb_key by assumption.
  case Rlt_bool_spec; [|easy]. intros H2 _. apply Rlt_bool_true. lra.
Qed.

Lemma fle0_gt_m1 x : fle 0%float x -> ((-1)%float <? x)%float = true.
Proof. apply (ltb_fle_trans _ 0%float). reflexivity. Qed.

Local Instance Vexp : Valid_exp (fexp prec emax) := fexp_correct prec emax Hprec.
Local Instance Vrnd : Valid_rnd (round_mode mode_NE) := valid_rnd_round_mode mode_NE.
Lemma rnd_le x y : x <= y -> rnd x <= rnd y.
Proof. apply round_le; auto with typeclass_instances. Qed.
Lemma rnd_FR x : rnd (FR x) = FR x.
Proof. apply round_generic; auto with typeclass_instances. apply generic_format_B2R. Qed.
Lemma rnd_0 : rnd 0 = 0.
Proof. apply round_0; auto with typeclass_instances. Qed.

Lemma mul_fin_inv a b : ffin (a * b)%float -> FR (a * b)%float = rnd (FR a * FR b) /\ ffin a /\ ffin b.
Proof.
  unfold ffin, FR. rewrite mul_equiv. intros F.
  generalize (Bmult_correct prec emax Hprec Hmax mode_NE (Prim2B a) (Prim2B b)).
  case Rlt_bool_spec; intros _.
  - intros (H1 & H2 & _). split; [exact H1|]. rewrite F in H2. symmetry in H2.
    now apply andb_true_iff in H2.
  - intros H. exfalso. revert F. rewrite <- is_finite_SF_B2SF, H. unfold binary_overflow. simpl.
    now destruct (xorb _ _).
Qed.

Lemma mul_fin_intro x y : ffin x -> ffin y -> Rabs (rnd (FR x * FR y)) < bpow radix2 emax ->
  ffin (x * y)%float /\ FR (x * y)%float = rnd (FR x * FR y).
Proof.
  unfold ffin, FR. intros Fx Fy Hb. rewrite mul_equiv.
  generalize (Bmult_correct prec emax Hprec Hmax mode_NE (Prim2B x) (Prim2B y)).
  rewrite Rlt_bool_true by exact Hb. intros (H1 & H2 & _). rewrite Fx, Fy in H2. now split.
Qed.

(** for intervals that start at 0, [SelFloatP.bnd_mul] is the form to use *)
Lemma mul_mono a1 a2 b1 b2 x y :
  ffin (a2 * b2)%float -> fle 0%float a1 -> fle a1 x -> fle x a2 ->
  fle 0%float b1 -> fle b1 y -> fle y b2 ->
  ffin (x * y)%float /\ fle (a1 * b1)%float (x * y)%float /\ fle (x * y)%float (a2 * b2)%float /\
  fle 0%float (x * y)%float /\ ffin (a1 * b1)%float.
Proof.
  intros F2 A0 A1 A2 B0 B1 B2.
  destruct (mul_fin_inv _ _ F2) as (E2 & Fa2 & Fb2).
  assert (F0 : ffin 0%float) by reflexivity.
  assert (R0 : FR 0%float = 0) by reflexivity.
  destruct (fin_squeeze _ _ _ Fa2 A0 A1 A2) as (Fx & Fa1).
  destruct (fin_squeeze _ _ _ Fb2 B0 B1 B2) as (Fy & Fb1).
  apply fle_R in A0, A1, A2, B0, B1, B2; auto. rewrite R0 in A0, B0.
  assert (P1 : 0 <= FR a1 * FR b1) by (apply Rmult_le_pos; lra).
  assert (P2 : FR a1 * FR b1 <= FR x * FR y) by (apply Rmult_le_compat; lra).
  assert (P3 : FR x * FR y <= FR a2 * FR b2) by (apply Rmult_le_compat; lra).
  assert (Hb : forall u, 0 <= u <= FR a2 * FR b2 -> Rabs (rnd u) < bpow radix2 emax).
  { intros u (U0 & U1). apply rnd_le in U0, U1. rewrite rnd_0 in U0.
    rewrite Rabs_pos_eq by exact U0. apply Rle_lt_trans with (1 := U1).
    rewrite <- E2. apply Rle_lt_trans with (2 := FR_lt_emax (a2 * b2)%float). apply RRle_abs. }
  destruct (mul_fin_intro x y Fx Fy) as (Fxy & Exy). { apply Hb. lra. }
  destruct (mul_fin_intro a1 b1 Fa1 Fb1) as (F1 & E1). { apply Hb. lra. }
  repeat split; auto.
  - apply fle_R; auto. rewrite E1, Exy. now apply rnd_le.
  - apply fle_R; auto. rewrite E2, Exy. now apply rnd_le.
  - apply fle_R; auto. rewrite R0, Exy. rewrite <- rnd_0. apply rnd_le. lra.
Qed.

Lemma sub_fin_inv a b : ffin a -> ffin b -> ffin (a - b)%float -> FR (a - b)%float = rnd (FR a - FR b).
Proof.
  unfold ffin, FR. rewrite sub_equiv. intros Fa Fb F.
  generalize (Bminus_correct prec emax Hprec Hmax mode_NE (Prim2B a) (Prim2B b) Fa Fb).
  case Rlt_bool_spec; intros _.
  - now intros (H1 & _).
  - intros (H & _). exfalso. revert F. rewrite <- is_finite_SF_B2SF, H. unfold binary_overflow. simpl.
    now destruct (Bsign _).
Qed.

Lemma sub_fin_intro x y : ffin x -> ffin y -> Rabs (rnd (FR x - FR y)) < bpow radix2 emax ->
  ffin (x - y)%float /\ FR (x - y)%float = rnd (FR x - FR y).
Proof.
  unfold ffin, FR. intros Fx Fy Hb. rewrite sub_equiv.
  generalize (Bminus_correct prec emax Hprec Hmax mode_NE (Prim2B x) (Prim2B y) Fx Fy).
  rewrite Rlt_bool_true by exact Hb. intros (H1 & H2 & _). now split.
Qed.

Lemma sub_mono c p1 p2 p :
  ffin c -> ffin p1 -> ffin p2 -> ffin (c - p1)%float -> ffin (c - p2)%float ->
  fle p1 p -> fle p p2 ->
  ffin (c - p)%float /\ fle (c - p2)%float (c - p)%float /\ fle (c - p)%float (c - p1)%float.
Proof.
  intros Fc F1 F2 G1 G2 L1 L2.
  assert (Fp : ffin p) by (apply (fle_fin_between p1 p p2); auto).
  apply fle_R in L1, L2; auto.
  pose proof (sub_fin_inv _ _ Fc F1 G1) as E1. pose proof (sub_fin_inv _ _ Fc F2 G2) as E2.
  assert (U1 : rnd (FR c - FR p) <= FR (c - p1)%float) by (rewrite E1; apply rnd_le; lra).
  assert (U2 : FR (c - p2)%float <= rnd (FR c - FR p)) by (rewrite E2; apply rnd_le; lra).
  destruct (sub_fin_intro c p Fc Fp) as (F & E).
  { pose proof (FR_lt_emax (c - p1)%float) as B1. pose proof (FR_lt_emax (c - p2)%float) as B2.
    apply Rabs_def1; [|apply Rabs_def2 in B2]; [|destruct B2]; try lra.
    apply Rle_lt_trans with (1 := U1). apply Rle_lt_trans with (2 := B1). apply RRle_abs. }
  repeat split; auto; apply fle_R; auto; rewrite E; assumption.
Qed.

Lemma div_not_nan x y :
  PrimFloat.is_nan x = false -> ffin y -> FR y <> 0 -> PrimFloat.is_nan (x / y)%float = false.
Proof.
  unfold ffin, FR. rewrite !is_nan_equiv, div_equiv. intros Nx Fy Zy.
  generalize (Bdiv_correct prec emax Hprec Hmax mode_NE (Prim2B x) (Prim2B y) Zy).
  destruct (Prim2B y) as [sy|sy| |sy my ey Hy]; try easy; try (now elim Zy).
  destruct (Prim2B x) as [sx|sx| |sx mx ex Hx]; try easy; try (intros _; reflexivity).
  case Rlt_bool_spec; intros _.
  - intros (_ & H & _). revert H.
    generalize (@Bdiv prec emax Hprec Hmax mode_NE (B754_finite sx mx ex Hx) (B754_finite sy my ey Hy)).
    intros z; now destruct z.
  - intros H. rewrite <- is_nan_SF_B2SF, H. unfold binary_overflow. simpl. now destruct (xorb _ _).
Qed.

Lemma div_by_pos_not_nan x y :
  PrimFloat.is_nan x = false -> ffin y -> (0 <? y)%float = true -> PrimFloat.is_nan (x / y)%float = false.
Proof.
  intros Nx Fy Hy. apply div_not_nan; auto.
  assert (F0 : ffin 0%float) by reflexivity. rewrite ltb_R in Hy by assumption.
  revert Hy. case Rlt_bool_spec; try easy. change (FR 0%float) with 0%R. intros; lra.
Qed.

Definition ofZ (n : Z) : flt := of_uint63 (Uint63.of_Z n).

Lemma ofZ_R n : (0 <= n < 9223372036854775808)%Z -> ffin (ofZ n) /\ FR (ofZ n) = rnd (IZR n).
Proof.
  intros Hn. unfold ffin, FR, ofZ. rewrite of_int63_equiv.
  rewrite Uint63.of_Z_spec. rewrite Z.mod_small by (change Uint63.wB with 9223372036854775808%Z; lia).
  generalize (binary_normalize_correct prec emax Hprec Hmax mode_NE n 0 false).
  assert (E : F2R (Float radix2 n 0) = IZR n) by (unfold F2R; simpl; lra).
  cbv zeta. rewrite E.
  rewrite Rlt_bool_true.
  - intros (H1 & H2 & _). now split.
  - assert (B : IZR n <= bpow radix2 63).
    { change (bpow radix2 63) with (IZR (2 ^ 63)). apply IZR_le. lia. }
    apply rnd_le in B. rewrite (round_generic radix2 _ _ (bpow radix2 63)) in B.
    2:{ apply generic_format_bpow. unfold fexp, emin, prec, emax. simpl. lia. }
    assert (P : 0 <= rnd (IZR n)). { rewrite <- rnd_0. apply rnd_le. apply IZR_le. lia. }
    rewrite Rabs_pos_eq by exact P. apply Rle_lt_trans with (1 := B). apply bpow_lt. unfold emax. lia.
Qed.

Lemma ofZ_mono n m : (0 <= n <= m)%Z -> (m < 9223372036854775808)%Z -> fle (ofZ n) (ofZ m).
Proof.
  intros H1 H2. destruct (ofZ_R n) as (Fn & En); [lia|]. destruct (ofZ_R m) as (Fm & Em); [lia|].
  apply fle_R; auto. rewrite En, Em. apply rnd_le. apply IZR_le. lia.
Qed.

Lemma ofZ_nonneg n : (0 <= n < 9223372036854775808)%Z -> fle 0%float (ofZ n).
Proof. intros H. change 0%float with (ofZ 0). apply ofZ_mono; lia. Qed.
