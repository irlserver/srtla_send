(** C18P.v — the lemmas behind Props/C18.v.  [response_of] / [config_after] name what one line
    yields at either entry point, and [entry_conforms] says it is what ControlSpec.v expects; from
    it come the clause theorems on single lines ([base_call_ok], [exactly_one_response],
    [notification_applied], [timeout_echoed]).  The simulation ([inv], [step_ok], [run_from_ok])
    shows that the model's own traces satisfy the monitor of Run_C18.v for every history; carried
    to the end of a history ([final_state], [tracked_of]) it gives [set_visible]: the last value
    set for a field is the one get_status shows ([holds], [untouched], [holds_keep]). *)
From Srtla Require Import Base BaseP JsonP ControlP Run_C18.
From Coq Require Import ZifyBool.
Local Open Scope string_scope.
Local Open Scope Z_scope.

Definition rbody_of (b : body) : rbody :=
  match b with BResult v => RResult v | BError c => RError c end.

Lemma parse_response_render r : parse_response (render r) = Some (rs_id r, rbody_of (rs_body r)).
Proof. destruct r as [id [v|c]]; reflexivity. Qed.

Definition response_of (ent : entry) (c : config) (h : hub) (e : env) (l : line_outcome) : outcome :=
  match ent with
  | Stdin => fst (dispatch c e l)
  | Socket ctx => fst (fst (dispatch_async ctx c h e l))
  end.
Definition config_after (ent : entry) (c : config) (h : hub) (e : env) (l : line_outcome) : config :=
  match ent with
  | Stdin => snd (dispatch c e l)
  | Socket ctx => snd (fst (dispatch_async ctx c h e l))
  end.

Lemma entry_conforms ent c h e l :
  exists r, response_of ent c h e l = Done r /\
    conforms (spec_expect ent l) r (result_fact c e l) /\
    config_after ent c h e l = apply_setting c (spec_setting l).
Proof. destruct ent; [apply dispatch_conforms|apply dispatch_async_conforms]. Qed.

Lemma config_after_eq ent c h e l : config_after ent c h e l = apply_setting c (spec_setting l).
Proof. destruct (entry_conforms ent c h e l) as (_ & _ & _ & H). exact H. Qed.

Lemma mode_eqb_refl m : mode_eqb m m = true.
Proof. destruct m; reflexivity. Qed.
Lemma mode_eqb_eq a b : mode_eqb a b = true -> a = b.
Proof. destruct a, b; (reflexivity || discriminate). Qed.

Lemma opt_agrees_none {A} (eqb : A -> A -> bool) x : opt_agrees eqb None x = true.
Proof. reflexivity. Qed.

Lemma snap_shows_track t c s :
  snap_shows t c = true -> snap_shows (track t s) (apply_setting c s) = true.
Proof.
  unfold snap_shows. intro H.
  rewrite !andb_true_iff in H. destruct H as [[[H1 H2] H3] H4].
  destruct s as [[m|b|b|z]|]; cbn [track apply_setting set_mode set_quality set_stall store_timeout
    tk_mode tk_quality tk_stall tk_timeout c_mode c_quality c_stall c_timeout opt_agrees];
    rewrite ?H1, ?H2, ?H3, ?H4, ?mode_eqb_refl, ?Bool.eqb_reflx, ?Z.eqb_refl; reflexivity.
Qed.

Lemma field_shows_agrees {A} (eqb : A -> A -> bool) (inj : A -> json) o x got :
  (forall a b, eqb a b = true -> a = b) -> got = Some (inj x) ->
  opt_agrees eqb o x = true -> field_shows got (option_map inj o) = true.
Proof.
  intros Heq -> H. destruct o as [y|]; [|reflexivity].
  apply Heq in H. subst y. apply json_eqb_refl.
Qed.

Lemma status_shows_ok t c e : snap_shows t c = true -> status_shows t (status_json c e) = true.
Proof.
  unfold status_json. destruct (match e_cw e with Some p => p | None => (0, 0) end) as [w m].
  unfold snap_shows, status_shows. intro H.
  rewrite !andb_true_iff in H. destruct H as [[[H1 H2] H3] H4].
  cbn [vget assoc String.eqb Ascii.eqb Bool.eqb].
  rewrite (field_shows_agrees _ (fun m => JStr (mode_str m)) _ _ _ mode_eqb_eq eq_refl H1),
          (field_shows_agrees _ JBool _ _ _ Bool.eqb_prop eq_refl H2),
          (field_shows_agrees _ JBool _ _ _ Bool.eqb_prop eq_refl H3),
          (field_shows_agrees _ JInt _ _ _ (fun a b => proj1 (Z.eqb_eq a b)) eq_refl H4).
  reflexivity.
Qed.

Lemma range_apply c l :
  in_timeout_range c = true -> in_timeout_range (apply_setting c (spec_setting l)) = true.
Proof.
  intro H. destruct (spec_setting l) as [[m|b|b|z]|] eqn:E; try exact H.
  apply spec_setting_range in E. unfold in_timeout_range. cbn [apply_setting store_timeout c_timeout]. lia.
Qed.

Lemma get_status_keeps c l ver p id :
  line_request l = Some (ver, "get_status", p, id) -> apply_setting c (spec_setting l) = c.
Proof.
  intro H. rewrite spec_setting_unfold, H.
  destruct (String.eqb ver "2.0" && params_ok "get_status" p); reflexivity.
Qed.

(** The result of a base method computed on [c] passes the result clauses against what is tracked
    after the line: get_status sets nothing, so it is judged against [t] itself, which [c] shows;
    a timeout setter echoes the value its setting carries. *)
Lemma mon_result_ok c e l t v :
  result_fact c e l v -> snap_shows t c = true ->
  mon_result l (track t (spec_setting l)) v = 0%N.
Proof.
  unfold result_fact, mon_result. rewrite spec_method_unfold, spec_setting_unfold.
  destruct (line_request l) as [[[[ver me] p] id]|]; [|reflexivity].
  intros Hv Hs. destruct (String.eqb me "get_status") eqn:Eg.
  - apply String.eqb_eq in Eg. subst me. rewrite (Hv eq_refl).
    change (setting_of "get_status" p) with (@None setting).
    change (result_of c e "get_status" p) with (status_json c e).
    destruct (String.eqb ver "2.0" && params_ok "get_status" p);
      cbn [track]; rewrite (status_shows_ok t c e Hs); reflexivity.
  - cbn [negb]. destruct (String.eqb ver "2.0" && params_ok me p); [|reflexivity].
    destruct (setting_of me p) as [[m|b|b|z]|] eqn:Es; try reflexivity.
    rewrite (Hv (base_not_sub me (setting_of_base me p _ Es))). unfold result_of. rewrite Eg, Es.
    cbn [vget assoc String.eqb Ascii.eqb Bool.eqb]. rewrite Z.eqb_refl. reflexivity.
Qed.

Lemma mon_response_ok ent l t r P :
  conforms (spec_expect ent l) r P ->
  (forall v, P v -> mon_result l t v = 0%N) ->
  mon_response ent l t (option_map render r) = 0%N.
Proof.
  intros Hc Hp. unfold mon_response.
  destruct (spec_expect ent l) as [|id code|id|id]; cbn [conforms] in Hc.
  - subst r. reflexivity.
  - subst r. cbn [option_map]. rewrite parse_response_render. cbn [rs_id rs_body rbody_of].
    rewrite json_eqb_refl, Z.eqb_refl. reflexivity.
  - destruct Hc as (v & -> & Hv). cbn [option_map]. rewrite parse_response_render. cbn [rs_id rs_body rbody_of].
    rewrite json_eqb_refl. cbn [negb]. apply Hp. exact Hv.
  - destruct Hc as [(v & ->)| ->]; cbn [option_map]; rewrite parse_response_render; cbn [rs_id rs_body rbody_of];
      rewrite json_eqb_refl; reflexivity.
Qed.

Lemma mon_entry_ok ent c h e l t :
  snap_shows t c = true -> in_timeout_range c = true ->
  mon_entry ent l (track t (spec_setting l))
            (observe (response_of ent c h e l) (config_after ent c h e l)) = 0%N.
Proof.
  intros Hs Hr. destruct (entry_conforms ent c h e l) as (r & -> & Hc & ->).
  unfold mon_entry. cbn [observe o_panic o_resp o_snap].
  rewrite (mon_response_ok ent l _ r _ Hc (fun v Hv => mon_result_ok c e l t v Hv Hs)).
  rewrite (range_apply c l Hr), (snap_shows_track t c _ Hs). reflexivity.
Qed.

Definition inv (s : state) (t : tracked) : Prop :=
  s_sync s = s_async s /\ snap_shows t (s_sync s) = true /\ in_timeout_range (s_sync s) = true.

(** outside the subscription methods the two calls are the same call *)
Lemma agree_ok ctx c h e l :
  mon_agree l {| ob_sync := observe (response_of Stdin c h e l) (config_after Stdin c h e l);
                 ob_async := observe (response_of (Socket ctx) c h e l) (config_after (Socket ctx) c h e l) |} = 0%N.
Proof.
  unfold mon_agree. rewrite spec_method_unfold. cbn [ob_sync ob_async response_of config_after].
  destruct (line_request l) as [[[[ver me] p] id]|] eqn:El; [|reflexivity].
  destruct (is_sub_method me) eqn:Esub; [reflexivity|].
  rewrite async_agrees by (rewrite El, Esub; apply andb_false_r). cbn [fst snd].
  unfold resp_same. rewrite (opt_eqb_refl json_eqb json_eqb_refl). reflexivity.
Qed.

Lemma step_ok ctx s t o :
  inv s t ->
  mon_step ctx (track t (spec_setting (o_line o))) o (snd (step ctx s o)) = 0%N /\
  inv (fst (step ctx s o)) (track t (spec_setting (o_line o))).
Proof.
  intros (Heq & Hshow & Hrange).
  destruct o as [e l]. unfold step. cbn [o_line o_env]. rewrite <- Heq.
  set (c := s_sync s) in *. set (h := s_hub s).
  pose proof (mon_entry_ok Stdin c h e l t Hshow Hrange) as H1.
  pose proof (mon_entry_ok (Socket ctx) c h e l t Hshow Hrange) as H2.
  pose proof (agree_ok ctx c h e l) as H3.
  pose proof (config_after_eq Stdin c h e l) as C1.
  pose proof (config_after_eq (Socket ctx) c h e l) as C2.
  cbn [response_of config_after] in H1, H2, H3, C1, C2.
  destruct (dispatch c e l) as [o1 c1]. destruct (dispatch_async ctx c h e l) as [[o2 c2] h2].
  cbn [fst snd] in *. split.
  - unfold mon_step. cbn [o_line ob_sync ob_async]. rewrite H1, H2, H3. reflexivity.
  - subst c1 c2. split; [reflexivity|].
    split; [apply snap_shows_track; exact Hshow|apply range_apply; exact Hrange].
Qed.

Lemma run_from_ok ctx ops : forall s t, inv s t -> mon_steps ctx t (run_from ctx s ops) = 0%N.
Proof.
  induction ops as [|o ops IH]; intros s t Hi; [reflexivity|].
  cbn [run_from]. pose proof (step_ok ctx s t o Hi) as [Hm Hi'].
  destruct (step ctx s o) as [s' b]. cbn [fst snd] in *.
  cbn [mon_steps]. rewrite Hm. apply IH. exact Hi'.
Qed.

Lemma cfg_init_ok i : exists c, cfg_init i = Some c /\ in_timeout_range c = true.
Proof.
  destruct i as [|m nq ns mif stale tmo].
  - eexists. split; reflexivity.
  - cbn [cfg_init]. rewrite clamp_ok. cbn [obind]. eexists. split; [reflexivity|].
    unfold in_timeout_range. cbn [c_timeout]. pose proof (spec_clamp_range tmo). lia.
Qed.

Lemma inv_init c : in_timeout_range c = true -> inv (init_state c) tracked_none.
Proof. intro H. unfold inv. cbn. repeat split. exact H. Qed.

(** the result of a successful call is computed on the configuration before the call *)
Theorem base_call_ok ent c h e j me p id :
  spec_request j = Some ("2.0", me, p, id) ->
  is_base_method me = true -> params_ok me p = true -> String.eqb me "get_stats" = false ->
  response_of ent c h e (Parsed j) = Done (respond id (BResult (result_of c e me p))) /\
  config_after ent c h e (Parsed j) = apply_setting c (setting_of me p).
Proof.
  intros Hj Hb Hp Hg. destruct (entry_conforms ent c h e (Parsed j)) as (r & -> & Hc & ->).
  unfold result_fact in Hc. cbn [spec_expect spec_setting line_request] in Hc |- *. rewrite Hj in Hc |- *.
  cbn [String.eqb Ascii.eqb Bool.eqb andb]. rewrite Hp. split; [|reflexivity].
  destruct id as [i|]; [|cbn [conforms] in Hc; subst r; reflexivity].
  unfold expect_for in Hc. rewrite (base_known ent me Hb), Hp, Hg in Hc.
  destruct Hc as (v & -> & Hv). rewrite (Hv (base_not_sub me Hb)). reflexivity.
Qed.

Theorem exactly_one_response ent c h e j v me p id :
  spec_request j = Some (v, me, p, Some id) ->
  exists b, response_of ent c h e (Parsed j) = Done (Some {| rs_id := id; rs_body := b |}) /\
    (v <> "2.0" -> b = BError (-32600)) /\
    (v = "2.0" -> known_method ent me = false -> b = BError (-32601)) /\
    (v = "2.0" -> known_method ent me = true -> params_ok me p = false -> b = BError (-32602)) /\
    (v = "2.0" -> known_method ent me = true -> params_ok me p = true ->
       (exists r, b = BResult r) \/ (me = "get_stats" /\ b = BError (-32603))).
Proof.
  intro Hs. destruct (entry_conforms ent c h e (Parsed j)) as (r & -> & Hc & _).
  cbn [spec_expect] in Hc. rewrite Hs in Hc. unfold expect_for in Hc.
  (* the expectation names the body outright except for a result, whose value is left open *)
  destruct (String.eqb_spec v "2.0") as [->|Hv]; cbn [negb conforms] in Hc.
  2:{ subst r. eexists. split; [reflexivity|]. repeat split; congruence. }
  destruct (known_method ent me); cbn [negb conforms] in Hc.
  2:{ subst r. eexists. split; [reflexivity|]. repeat split; congruence. }
  destruct (params_ok me p); cbn [negb conforms] in Hc.
  2:{ subst r. eexists. split; [reflexivity|]. repeat split; congruence. }
  destruct (String.eqb_spec me "get_stats") as [->|Hg]; cbn [conforms] in Hc.
  - destruct Hc as [(x & ->)| ->]; eexists; (split; [reflexivity|]); repeat split; try congruence; eauto.
  - destruct Hc as (x & -> & _). eexists. split; [reflexivity|]. repeat split; try congruence; eauto.
Qed.

Theorem notification_applied ent c h e j j' v me p id :
  spec_request j = Some (v, me, p, None) ->
  spec_request j' = Some (v, me, p, Some id) ->
  response_of ent c h e (Parsed j) = Done None /\
  config_after ent c h e (Parsed j) = config_after ent c h e (Parsed j') /\
  (forall ctx, snd (dispatch_async ctx c h e (Parsed j)) = snd (dispatch_async ctx c h e (Parsed j'))).
Proof.
  intros H1 H2. split; [|split].
  - destruct (entry_conforms ent c h e (Parsed j)) as (r & -> & Hc & _).
    cbn [spec_expect] in Hc. rewrite H1 in Hc. cbn [conforms] in Hc. subst r. reflexivity.
  - destruct (entry_conforms ent c h e (Parsed j)) as (_ & _ & _ & ->).
    destruct (entry_conforms ent c h e (Parsed j')) as (_ & _ & _ & ->).
    cbn [spec_setting]. rewrite H1, H2. reflexivity.
  - intro ctx. rewrite !dispatch_async_unfold. cbn [line_request]. rewrite H1, H2.
    destruct (negb (String.eqb v "2.0")); [reflexivity|].
    destruct (ctx && is_sub_method me); [destruct (sub_handle h me p)|]; reflexivity.
Qed.

Definition final_state (ctx : bool) (s : state) (ops : list op) : state :=
  fold_left (fun s o => fst (step ctx s o)) ops s.
Definition tracked_of (t : tracked) (ops : list op) : tracked :=
  fold_left (fun t o => track t (spec_setting (o_line o))) ops t.

Lemma inv_final_state ctx ops : forall s t, inv s t -> inv (final_state ctx s ops) (tracked_of t ops).
Proof.
  induction ops as [|o ops IH]; intros s t Hi; [exact Hi|].
  cbn [final_state tracked_of fold_left]. apply IH. apply step_ok. exact Hi.
Qed.

Lemma inv_from_init i ctx ops c :
  cfg_init i = Some c -> inv (final_state ctx (init_state c) ops) (tracked_of tracked_none ops).
Proof.
  intro Hc. destruct (cfg_init_ok i) as (c' & Hc' & Hr). rewrite Hc in Hc'. injection Hc' as <-.
  apply inv_final_state, inv_init, Hr.
Qed.

Definition same_field (a b : setting) : bool :=
  match a, b with
  | SMode _, SMode _ | SQuality _, SQuality _ | SStall _, SStall _ | STimeout _, STimeout _ => true
  | _, _ => false
  end.
Definition holds (t : tracked) (s : setting) : Prop :=
  match s with
  | SMode m => tk_mode t = Some m
  | SQuality b => tk_quality t = Some b
  | SStall b => tk_stall t = Some b
  | STimeout z => tk_timeout t = Some z
  end.
Definition untouched (s : setting) (o : op) : Prop :=
  match spec_setting (o_line o) with Some s' => same_field s s' = false | None => True end.

Lemma holds_keep t s ops : holds t s -> Forall (untouched s) ops -> holds (tracked_of t ops) s.
Proof.
  revert t. induction ops as [|o ops IH]; intros t Ht Hf; [exact Ht|].
  inversion Hf as [|? ? Ho Hf']. subst. cbn [tracked_of fold_left]. apply IH; [|exact Hf'].
  unfold untouched in Ho. destruct (spec_setting (o_line o)) as [s'|]; [|exact Ht].
  destruct s, s'; cbn in Ho |- *; (discriminate || exact Ht).
Qed.

Theorem set_visible i ctx ops c :
  cfg_init i = Some c ->
  let s := final_state ctx (init_state c) ops in
  let t := tracked_of tracked_none ops in
  s_sync s = s_async s /\
  snap_shows t (s_sync s) = true /\
  (forall e, status_shows t (status_json (s_sync s) e) = true) /\
  (forall ent e j p id, spec_request j = Some ("2.0", "get_status", p, Some id) ->
     response_of ent (s_sync s) (s_hub s) e (Parsed j) =
       Done (Some {| rs_id := id; rs_body := BResult (status_json (s_sync s) e) |})).
Proof.
  intros Hc s t. destruct (inv_from_init i ctx ops c Hc) as (He & Hs & _). fold s t in He, Hs.
  split; [exact He|]. split; [exact Hs|]. split.
  - intro e. apply status_shows_ok. exact Hs.
  - intros ent e j p id Hj.
    exact (proj1 (base_call_ok ent _ _ e j "get_status" p (Some id) Hj eq_refl eq_refl eq_refl)).
Qed.

Theorem timeout_echoed ent c h e j p id ms :
  spec_request j = Some ("2.0", "set_conn_timeout", p, id) ->
  vget p "ms" = Some (JInt ms) -> 0 <= ms < two64 ->
  let applied := Z.min 60000 (Z.max 1000 ms) in
  response_of ent c h e (Parsed j) =
    Done (option_map (fun i => {| rs_id := i; rs_body := BResult (JObj [("ms", JInt applied)]) |}) id) /\
  config_after ent c h e (Parsed j) = store_timeout c applied /\
  1000 <= applied <= 60000.
Proof.
  intros Hj Hp Hms applied.
  assert (Hpo : params_ok "set_conn_timeout" p = true).
  { change (is_u64 (vget p "ms") = true). rewrite Hp. unfold is_u64. lia. }
  assert (Hso : setting_of "set_conn_timeout" p = Some (STimeout applied)).
  { change (match vget p "ms" with Some (JInt z) => Some (STimeout (spec_clamp z)) | _ => None end
            = Some (STimeout applied)). rewrite Hp. reflexivity. }
  destruct (base_call_ok ent c h e j _ p id Hj eq_refl Hpo eq_refl) as [-> ->].
  unfold result_of. rewrite Hso. cbn [String.eqb Ascii.eqb Bool.eqb apply_setting].
  split; [destruct id; reflexivity|]. split; [reflexivity|unfold applied; lia].
Qed.
