(** The model's own traces satisfy the C11 monitor, for every op list. *)
From Coq Require Import ZArith List Bool Lia Floats.
From Srtla Require Import Base Select Run_Sel Run_C11 SelectP C11MonP SelIdemP.
Import ListNotations.
Local Open Scope Z_scope.

Lemma same_call_args l1 n1 c1 e1 o1 l2 n2 c2 e2 o2 :
  same_call (ES l1 n1 c1 e1 o1) (ES l2 n2 c2 e2 o2) = true -> l1 = l2 /\ n1 = n2 /\ c1 = c2.
Proof.
  unfold same_call. destruct c1 as [m1 q1 s1 a1 b1 t1], c2 as [m2 q2 s2 a2 b2 t2].
  rewrite !andb_true_iff. intros [[[Hl Hn] _] Hc].
  apply onat_eqb_eq in Hl. apply Z.eqb_eq in Hn.
  destruct Hc as [[[[[Hm Hq] Hs] Ha] Hb] Ht].
  apply Bool.eqb_prop in Hq, Hs. apply Z.eqb_eq in Ha, Hb, Ht. subst.
  repeat split. destruct m1, m2; try discriminate; reflexivity.
Qed.

Definition state_left_by (s : list link) (prev : option event) : Prop :=
  match prev with
  | Some (ES last now cfg exps o) => exists s0, select s0 last now cfg exps = (o_res o, s)
  | _ => True
  end.

(** clause 4: the same call again, on the state the first call left, gives the same answer *)
Lemma repeat_ok s prev last now cfg exps o s' :
  state_left_by s prev -> select s last now cfg exps = (o_res o, s') ->
  match prev with
  | Some p => if same_call p (ES last now cfg exps o) && negb (onat_eqb (res_of p) (o_res o)) &&
                 match c_mode cfg with Enhanced => true | Classic => false end && (0 <? now)
              then 4%N else 0%N
  | None => 0%N
  end = 0%N.
Proof.
  intros Hp E. destruct prev as [p|]; [|reflexivity].
  destruct (same_call p _) eqn:Sc; [|reflexivity].
  destruct p as [| |l1 n1 c1 e1 o1]; try discriminate.
  apply same_call_args in Sc. destruct Sc as (-> & -> & ->).
  destruct (c_mode cfg) eqn:Em; [now rewrite !andb_false_r|].
  destruct (0 <? now) eqn:Hn; [|now rewrite !andb_false_r].
  apply Z.ltb_lt in Hn. destruct Hp as (s0 & E0). cbn [res_of].
  pose proof (select_idempotent s0 last now cfg e1 exps Hn Em) as Id.
  rewrite E0 in Id. cbn [snd] in Id. rewrite E in Id. injection Id as -> _.
  destruct (o_res o1) as [x|]; cbn [onat_eqb]; [now rewrite Nat.eqb_refl | reflexivity].
Qed.

Lemma model_trace_ok s tr :
  model_trace s tr -> forall prev i, state_left_by s prev -> fst (mon_from s prev tr i) = 0%N.
Proof.
  induction 1 as [|s ev tr Hev _ IH]; intros prev i Hp; [reflexivity|]. cbn [mon_from].
  destruct ev as [ls|k l|last now cfg exps o]; try (apply IH; exact I).
  destruct Hev as (Hs & He & E). pose proof (mon_select_model s last now cfg exps Hs He) as M.
  rewrite E in M. cbn [fst] in M. rewrite M. cbn [N.eqb negb].
  apply model_select_res in E. rewrite (repeat_ok s prev _ _ _ _ o _ Hp E). apply IH. now exists s.
Qed.
