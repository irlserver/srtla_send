(** The C11 monitor's per-select clauses hold on every model select. *)
From Coq Require Import ZArith List Bool Lia Floats.
From Srtla Require Import Base BaseP Select Run_Sel Run_C11 SelFloatP SelectP C11P SelViewP.

Import ListNotations.
Local Open Scope Z_scope.

Lemma spec_scores_ranked au q now : forall ls exps i si,
  nths (spec_scores au q now ls exps) i = Some si ->
  exists c, nth_error ls i = Some c /\ spec_candidate au now c = true.
Proof.
  induction ls as [|a t IH]; intros exps i si E; [destruct i; discriminate|].
  destruct i; cbn [nth_error].
  - exists a. split; [reflexivity|]. unfold nths in E. cbn [spec_scores nth] in E.
    now destruct (spec_candidate au now a).
  - exact (IH (tl exps) i si E).
Qed.

Lemma score_list_not_nan ls exps au q now s :
  Forall wfl ls -> forallb exp_okb exps = true ->
  In (Some s) (score_list ls exps au q now) -> PrimFloat.is_nan s = false.
Proof.
  intros Hw He Hin.
  destruct (proj2 (map_exps_In (link_score au q now) _ eq_refl ls exps (exps_ok _ He)) _ Hin) as (e & c & Pe & Hc & E).
  unfold link_score in E. destruct (score_link au q now e c) as [(s0, c')|] eqn:Es; [|discriminate].
  injection E as ->. rewrite Forall_forall in Hw. exact (score_link_not_nan _ _ _ _ _ _ _ (Hw c Hc) Pe Es).
Qed.

Lemma forallb_qrange s' : Forall wfl s' -> forallb (fun h => spec_q_rangeb (h_qmult h)) (map hid_of s') = true.
Proof.
  induction 1 as [|c t Hc Ht IH]; [reflexivity|]. cbn [map forallb]. rewrite IH, andb_true_r.
  unfold wfl, wf_linkb in Hc. apply andb_true_iff in Hc. exact (proj2 Hc).
Qed.

Lemma mon_select_model s last now cfg exps :
  Forall wfl s -> forallb exp_okb exps = true ->
  mon_select s last now cfg exps (fst (model_select s last now cfg exps)) = 0%N.
Proof.
  intros Hwf He. unfold mon_select, model_select.
  destruct (select s last now cfg exps) as (r, s') eqn:Esel. cbn [fst o_res o_hid].
  destruct (c_mode cfg) eqn:Em; [reflexivity|].
  destruct (negb _); [reflexivity|].
  unfold select in Esel. rewrite Em in Esel.
  set (ls1 := apply_stall_gate s now cfg) in *.
  set (q := c_quality cfg && true) in *.
  replace (enhanced_quality cfg) with q by (unfold enhanced_quality; now rewrite Em).
  assert (Hwf1 : Forall wfl ls1) by now apply gate_wf.
  rewrite enhanced_select_eq in Esel. cbv zeta in Esel.
  set (au := existsb (unconstrained now) ls1) in *. injection Esel as Er Es'.
  (* The monitor's gated view of the pre-state agrees with the gate's output on all that the loop
     and the oracle read, so its unconstrained flag and its score table are those of the model;
     the clauses then are the three facts about [decide] of C11P. *)
  assert (V : Forall2 (fun a b => sel_view a = sel_view b) (gated_view s (map hid_of s')) ls1).
  { apply (gated_view_sel cfg s ls1 s' (apply_stall_gate_rel s now cfg)). rewrite <- Es'. apply links_after_nc. }
  set (g := gated_view s (map hid_of s')) in *.
  rewrite (reads_existsb sel_view (spec_unconstrained now) g ls1 (fun _ => eq_refl) V), existsb_unconstrained_spec.
  fold au.
  assert (Escs : spec_scores au q now g exps = score_list ls1 exps au q now).
  { rewrite score_list_spec. now apply spec_scores_view. }
  rewrite Escs. set (scs := score_list ls1 exps au q now) in *.
  rewrite (forallb_qrange s').
  2:{ rewrite <- Es'. eapply link_rel_wf; [apply links_after_rel; exact He | exact Hwf1]. }
  destruct r as [i|]; [|reflexivity].
  destruct (decide_candidate scs last i Er) as (si & Hi).
  change (nth_score scs i) with (nths scs i). rewrite Hi.
  destruct (spec_scores_ranked au q now g exps i si) as (ci & -> & Hc); [now rewrite Escs|].
  apply andb_true_iff in Hc. destruct Hc as (_ & Hc). apply negb_true_iff in Hc. rewrite Hc.
  destruct (decide_argmax scs last i si (fun x => score_list_not_nan ls1 exps au q now x Hwf1 He) Er Hi)
    as [M|(-> & B)].
  - rewrite M. cbn [orb negb]. destruct last as [l|]; [|reflexivity].
    change (nth_score scs l) with (nths scs l). destruct (nths scs l) as [sc|] eqn:El; [|reflexivity].
    destruct (Nat.eqb_spec i l) as [->|Ne]; [reflexivity|].
    now rewrite (decide_leave scs l i sc Er Ne El).
  - change (nth_score scs i) with (nths scs i). rewrite Hi, Nat.eqb_refl, B. cbn [negb andb]. now rewrite orb_true_r.
Qed.
