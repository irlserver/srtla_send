(** C01P.v — the model's own traces satisfy the C01 monitor: a simulation between
    the model link state and the monitor's reference state. *)
From Coq Require Import ZifyBool.
From Srtla Require Import Base Constants Forward BaseP ForwardP Run_C01.

(** sender-originated control datagrams named by housekeeping / uplink ops are SRTLA
    control frames (keepalive, REG1, REG2) *)
Definition wf_op (o : op) : Prop :=
  match o with
  | House _ ctl | Other ctl => Forall (fun w => forallb is_ctl w = true) ctl
  | _ => True
  end.
Definition wf_ops (ops : list op) : Prop := Forall wf_op ops.
Definition wf_opb (o : op) : bool :=
  match o with
  | House _ ctl | Other ctl => forallb (forallb is_ctl) ctl
  | _ => true
  end.

Lemma ctl_nth : forall ctl j, Forall (fun w => forallb is_ctl w = true) ctl ->
  forallb is_ctl (nth j ctl []) = true.
Proof.
  intros ctl j H. destruct (Nat.lt_ge_cases j (length ctl)) as [Hj|Hj].
  - rewrite Forall_forall in H. apply H, nth_In, Hj.
  - rewrite nth_overflow by exact Hj. reflexivity.
Qed.

Lemma deliver_ok : forall pend (sent lost q' : list qent) fail,
  pend = map cpy_of (sent ++ lost ++ q') -> lost = [] \/ fail = true /\ q' = [] ->
  deliver pend (map q_d sent) (blen q') fail = (0%N, map cpy_of q').
Proof.
  intros pend sent lost q' fail -> Hl. unfold deliver.
  rewrite map_app, map_length, <- (map_length cpy_of sent), firstn_app, skipn_app.
  rewrite firstn_all, skipn_all, Nat.sub_diag. cbn [firstn skipn app]. rewrite app_nil_r, map_map.
  change (map (fun x => fst (cpy_of x)) sent) with (map q_d sent). rewrite (list_eqb_refl _ zlist_eqb_refl). cbn [negb].
  destruct Hl as [-> |[-> ->]].
  - cbn [app]. rewrite blen_map, Z.eqb_refl. reflexivity.
  - rewrite app_nil_r. destruct lost; reflexivity.
Qed.

Lemma finish_ok : forall io m p s, (io = true -> blen p < 32) ->
  finish io m (0%N, p) s = (0%N, {| m_pend := p; m_since := s |}).
Proof.
  intros io m p s H. unfold finish. cbn [N.eqb negb].
  destruct io; [|reflexivity]. cbn [andb]. specialize (H eq_refl).
  destruct (32 <=? blen p) eqn:Hc; [exfalso; lia|reflexivity].
Qed.

Lemma probe_n_100 : STALL_PROBE_ONE_IN_N = 100.
Proof. reflexivity. Qed.

(** the monitor's pending copies are the queue; its count of routed data packets since the last
    duplicate (unknown before the first one) is never below the probe counter *)
Definition sim (l : link) (m : mlink) : Prop :=
  m_pend m = map cpy_of (queue l) /\ (forall s, m_since m = Some s -> ctr l <= s).

Definition since1_of (pkt : dgram) (m : mlink) : option Z :=
  if is_some (seq_of pkt) then option_map (Z.add 1) (m_since m) else m_since m.

Lemma sim_pend_len : forall l m, sim l m -> blen (m_pend m) = blen (queue l).
Proof. intros l m (H & _). rewrite H. apply blen_map. Qed.

Lemma sim_quiet : forall l l' m, sim l m -> queue l' = queue l -> ctr l' = ctr l ->
  exists m', quiet m [] (blen (queue l')) = (0%N, m') /\ sim l' m'.
Proof.
  intros l l' m H Hq Hc. exists m. unfold quiet. rewrite Hq, (sim_pend_len _ _ H), Z.eqb_refl.
  split; [reflexivity|]. unfold sim. rewrite Hq, Hc. exact H.
Qed.

Lemma sim_reset : forall k l m, sim l m -> inv l ->
  exists m', (if blen (queue (reset_link k l)) =? 0
              then (0%N, {| m_pend := []; m_since := m_since m |}) else (1%N, m)) = (0%N, m') /\
             sim (reset_link k l) m'.
Proof.
  intros k l m (_ & Hs) (_ & [Hc _] & _). destruct (reset_link_spec k l) as (_ & _ & _ & Rq & Rc). rewrite Rq.
  eexists. split; [reflexivity|]. split; [rewrite Rq; reflexivity|]. cbn [m_since]. intros s Es. specialize (Hs s Es). lia.
Qed.

Lemma sim_finish : forall l l' m s1,
  hold_ok l' -> has_io l' = has_io l -> (forall s, s1 = Some s -> ctr l' <= s) ->
  exists m', finish (has_io l) m (0%N, map cpy_of (queue l')) s1 = (0%N, m') /\ sim l' m'.
Proof.
  intros l l' m s1 Hh Hio Hs1. rewrite <- Hio, finish_ok by (rewrite blen_map; exact Hh).
  eexists. split; [reflexivity|]. split; [reflexivity|exact Hs1].
Qed.

(** the common tail of the three branches of the monitor's client clause *)
Lemma sim_deliver : forall l l' m new sent lost fail s1,
  sim l m -> hold_ok l' -> has_io l' = has_io l -> queue l ++ new = sent ++ lost ++ queue l' ->
  lost = [] \/ fail = true /\ queue l' = [] -> (forall s, s1 = Some s -> ctr l' <= s) ->
  exists m', finish (has_io l) m
               (deliver (m_pend m ++ map cpy_of new) (map q_d sent) (blen (queue l')) fail) s1 = (0%N, m')
             /\ sim l' m'.
Proof.
  intros l l' m new sent lost fail s1 (Hp & _) Hh Hio Hq Hl Hs1.
  rewrite (deliver_ok _ sent lost (queue l') fail) by (rewrite Hp, <- map_app, Hq; reflexivity) || exact Hl.
  apply sim_finish; assumption.
Qed.

Lemma app_snoc_inv {A} (a s lo : list A) e :
  a ++ [e] = s ++ lo -> lo <> [] -> exists lo1, lo = lo1 ++ [e] /\ a = s ++ lo1.
Proof.
  intros H Hne. destruct (exists_last Hne) as (lo1 & e' & ->).
  rewrite app_assoc in H. apply app_inj_tail in H. destruct H as [-> ->]. exists lo1. split; reflexivity.
Qed.

Lemma set_ctr_same : forall l, set_ctr (ctr l) l = l.
Proof. destruct l; reflexivity. Qed.

Lemma since1_ge : forall l m pkt s, sim l m -> since1_of pkt m = Some s ->
  ctr l + (if is_some (seq_of pkt) then 1 else 0) <= s.
Proof.
  intros l m pkt s (_ & H). unfold since1_of. destruct (is_some (seq_of pkt)); [|intro E; specialize (H s E); lia].
  destruct (m_since m) as [s0|]; cbn [option_map]; [|discriminate].
  intro E. assert (Hs : 1 + s0 = s) by congruence. specialize (H s0 eq_refl). lia.
Qed.

Lemma sim_client : forall now b p i reg gated orc j l l' m w new sent lost,
  lstep (Client now (b :: p) (Some i) reg gated orc) j l l' w new sent lost -> inv l -> sim l m ->
  exists m', mon_link (has_io l) (Client now (b :: p) (Some i) reg gated orc) j m w (blen (queue l')) = (0%N, m')
             /\ sim l' m'.
Proof.
  intros now b p i reg gated orc j l l' m w new sent lost [Hq Ha Hc Hh Hw Hl] (_ & Hc0 & Hh0) Hsim.
  apply Hh in Hh0. destruct (Hc Hc0) as [Hc' Hpot]. unfold potential, ctr_ok in Hc0, Hc', Hpot. clear Hc Hh.
  cbn [mon_link may_lose routed_data_op] in *. fold (since1_of (b :: p) m).
  subst w. rewrite blen_map, (sim_pend_len _ _ Hsim).
  pose proof (fun s => since1_ge l m (b :: p) s Hsim) as Hs1.
  pose proof (f_equal blen (qs_queue Hq)) as Hb. rewrite !blen_app in Hb. pose proof (blen_nonneg lost) as Hl0.
  (* the monitor takes a queue that grew by one on a link the scheduler did not choose for a probe copy:
     [blen sent + q = blen pend + 1] holds exactly when a copy arrived and none was lost *)
  destruct Ha as [Ha Hr|? ? ? ? ? ? E _ Hji Ha|? ? ? ? ? ? E _ Hji _ Hdata Hg _ Hdue Ha];
    [|injection E as <- <- <- <- <- <-..].
  - rewrite (nprobes_same _ _ Ha) in Hpot. apply (qstep_nil Hq) in Ha. subst new.
    cbn in Hr. destruct (Nat.eqb j i); [discriminate|].
    replace (blen sent + _ =? _) with false by (rewrite blen_nil in Hb; lia).
    rewrite <- (app_nil_r (m_pend m)). apply sim_deliver with (new := []) (lost := lost); try apply Hq; auto.
    intros s Es. apply Hs1 in Es. lia.
  - subst j. rewrite Nat.eqb_refl. pose proof (qstep_new Hq Ha) as <-.
    apply sim_deliver with (lost := lost); try apply Hq; auto.
    intros s Es. apply Hs1 in Es. rewrite (nprobes_unique _ _ _ Ha) in Hpot. lia.
  - apply Nat.eqb_neq in Hji. rewrite Hji, Hg. rewrite Hdata in Hs1, Hpot. cbn [negb]. clear Hji Hg Hdata.
    pose proof (qstep_new Hq Ha) as Hn. rewrite (nprobes_probe _ _ _ Ha), probe_n_100 in *.
    assert (Hb1 : blen new = 1) by (rewrite <- (blen_map cpy_of), Hn; reflexivity).
    assert (Hc0' : ctr l' = 0) by lia.
    destruct lost as [|e0 lost0].
    + (* the duplicate is queued or sent *)
      replace (blen sent + _ =? _) with true by (rewrite blen_nil in Hb; lia).
      replace (match since1_of _ m with Some s => s <? 100 | None => false end) with false
        by (destruct (since1_of _ m) as [s|]; [specialize (Hs1 s eq_refl); lia|reflexivity]).
      rewrite <- Hn. apply sim_deliver with (lost := []); try apply Hq; auto.
      intros s Es. inversion Es; subst. lia.
    + (* the send failed and took the duplicate with it: the monitor sees a plain failed flush *)
      destruct Hl as [Hl|[Hf Hq']]; [discriminate|]. pose proof (blen_nonneg lost0).
      replace (blen sent + _ =? _) with false by (rewrite blen_cons in Hb; lia).
      destruct new as [|e [|? ?]]; try discriminate.
      pose proof (qs_queue Hq) as Hq0. rewrite Hq', app_nil_r in Hq0.
      destruct (app_snoc_inv _ _ _ _ Hq0) as (lost1 & _ & Hq1); [discriminate|].
      rewrite <- (app_nil_r (m_pend m)). apply sim_deliver with (new := []) (lost := lost1); try apply Hq; auto.
      * rewrite Hq', !app_nil_r. exact Hq1.
      * intros s Es. apply Hs1 in Es. lia.
Qed.

(** the last hypothesis is what the "has work" scan guarantees ([flush_tick_link]) *)
Lemma sim_flush : forall now orc j l l' m w new sent lost,
  lstep (FlushTick now orc) j l l' w new sent lost -> inv l -> sim l m ->
  (has_io l = true -> queue l' = []) ->
  exists m', mon_link (has_io l) (FlushTick now orc) j m w (blen (queue l')) = (0%N, m') /\ sim l' m'.
Proof.
  intros now orc j l l' m w new sent lost [Hq Ha Hc Hh Hw Hl] (_ & Hc0 & Hh0) Hsim He. pose proof Hsim as (Hp & Hs).
  destruct (Hc Hc0) as [_ Hpot]. unfold potential in Hpot.
  cbn [mon_link may_lose routed_data_op] in *. subst w.
  destruct Ha as [Ha _|? ? ? ? ? ? E|? ? ? ? ? ? E]; [|discriminate E..].
  rewrite (nprobes_same _ _ Ha) in Hpot. apply (qstep_nil Hq) in Ha. subst new.
  rewrite (deliver_ok _ sent lost _ _) by (rewrite Hp, <- (qs_queue Hq), app_nil_r; reflexivity) || exact Hl.
  cbn [fst N.eqb andb].
  (* clause 5: with I/O the tick has emptied the queue *)
  replace (has_io l && _) with false by (destruct (has_io l); [rewrite He by reflexivity|]; reflexivity).
  apply sim_finish; [apply Hh, Hh0|apply Hq|]. intros s Es. specialize (Hs s Es). lia.
Qed.

Lemma mon_link_sim : forall hw o j l m,
  inv l -> sim l m -> wf_op o -> (has_queued l = true -> hw = true) ->
  exists m',
    mon_link (has_io l) o j m (snd (step_link hw o j l)) (blen (queue (fst (step_link hw o j l))))
      = (0%N, m') /\ sim (fst (step_link hw o j l)) m'.
Proof.
  intros hw o j l m Hinv Hsim Hwf Hhw.
  destruct (step_link_spec hw o j l) as (new & sent & lost & H).
  destruct o as [now pkt sel reg gated orc|now orc|i r|i k|i b|eff ctl|ctl].
  - destruct pkt as [|b0 pkt']; [apply (sim_quiet l); auto|].
    destruct sel as [i|]; [|apply (sim_quiet l); auto].
    eapply sim_client; eassumption.
  - eapply sim_flush; [exact H|exact Hinv|exact Hsim|]. intro Hio. apply flush_tick_link; assumption.
  - cbn [mon_link step_link]. destruct (Nat.eqb j i); apply (sim_quiet l); auto.
  - cbn [mon_link step_link]. destruct (Nat.eqb j i); [apply sim_reset|apply (sim_quiet l)]; auto.
  - cbn [mon_link step_link]. destruct (Nat.eqb j i); apply (sim_quiet l); auto.
  - cbn [mon_link step_link fst snd]. cbn in Hwf. rewrite (ctl_nth _ j Hwf). cbn [negb].
    destruct (nth j eff HKeep) as [|r|k]; [apply (sim_quiet l)..|apply sim_reset]; auto.
  - cbn [mon_link step_link fst snd]. cbn in Hwf. rewrite (ctl_nth _ j Hwf). apply (sim_quiet l); auto.
Qed.

Lemma mon_links_sim : forall o hw ls ms j,
  Forall inv ls -> Forall2 sim ls ms -> wf_op o ->
  (forall l, In l ls -> has_queued l = true -> hw = true) ->
  exists ms',
    mon_links o j (map has_io ls) ms (map snd (step_links hw o j ls))
              (map (fun p => blen (queue (fst p))) (step_links hw o j ls)) = (0%N, ms') /\
    Forall2 sim (map fst (step_links hw o j ls)) ms'.
Proof.
  intros o hw ls ms j Hinv Hsim Hwf. revert j. induction Hsim as [|l m ls ms Hlm Hrest IH]; intros j Hhw.
  - exists []. split; [reflexivity|constructor].
  - inversion Hinv as [|? ? Hil Hit]; subst.
    destruct (mon_link_sim hw o j l m Hil Hlm Hwf (Hhw l (or_introl eq_refl))) as (m' & Hm & Hs').
    destruct (IH Hit (S j) (fun l0 Hin => Hhw l0 (or_intror Hin))) as (ms' & Hms & Hss).
    exists (m' :: ms'). cbn [step_links map mon_links]. rewrite Hm. cbn [N.eqb]. rewrite Hms.
    split; [reflexivity|constructor; assumption].
Qed.

Lemma mon_run_sim : forall ops ls ms k,
  Forall inv ls -> Forall2 sim ls ms -> Forall wf_op ops ->
  mon_run (map has_io ls) ms (run_from ls ops) k = 0%N.
Proof.
  induction ops as [|o t IH]; intros ls ms k Hinv Hsim Hwf; cbn [run_from]; [reflexivity|].
  inversion Hwf as [|? ? Ho Ht]; subst.
  destruct (mon_links_sim o (existsb has_queued ls) ls ms 0 Hinv Hsim Ho) as (ms' & Hm & Hs').
  { intros l Hin Hq. apply existsb_exists. exists l. split; assumption. }
  rewrite (surjective_pairing (step ls o)). unfold step at 1. cbn [mon_run snd obs_of o_wire o_q].
  rewrite Hm, <- (step_io ls o). apply IH; [apply step_inv, Hinv|exact Hs'|exact Ht].
Qed.

Lemma model_traces_ok : forall xs ops, wf_init xs -> wf_ops ops -> ok_C01 xs (run xs ops) = true.
Proof.
  intros xs ops Hx Ho. unfold ok_C01, monitor, run.
  replace (map i_io xs) with (map has_io (init xs)) by (unfold init; rewrite map_map; reflexivity).
  rewrite (mon_run_sim ops (init xs) (map m_init xs) 0); [reflexivity|apply init_inv, Hx| |exact Ho].
  unfold init. clear. induction xs as [|x t IH]; cbn; constructor; [|exact IH].
  split; [reflexivity|]. cbn. discriminate.
Qed.

Lemma wf_opb_ok : forall o, wf_opb o = true -> wf_op o.
Proof.
  intros o H. destruct o; cbn in *; try exact I;
    apply Forall_forall; intros w Hin; rewrite forallb_forall in H; apply H, Hin.
Qed.

Lemma probe_rate_window : forall xs ops1 ops2 j, wf_init xs -> (j < length xs)%nat ->
  let l1 := nth j (exec (init xs) ops1) dlink in
  let l2 := nth j (exec (init xs) (ops1 ++ ops2)) dlink in
  0 <= nprobes l2 - nprobes l1 <= (routed_data ops2 + 99) / 100.
Proof.
  intros xs ops1 ops2 j Hx Hj l1 l2. subst l1 l2. rewrite exec_app.
  assert (Hinv : Forall inv (exec (init xs) ops1)) by (apply exec_inv, init_inv, Hx).
  destruct (exec_potential ops2 _ j Hinv) as [H1 H2];
    [rewrite exec_length; unfold init; rewrite map_length; exact Hj|].
  pose proof (Forall_nth_inv _ j Hinv) as (_ & Hc1 & _).
  pose proof (Forall_nth_inv _ j (exec_inv ops2 _ Hinv)) as (_ & Hc2 & _).
  unfold potential, ctr_ok in *. rewrite probe_n_100 in *. split; [lia|].
  apply Z.div_le_lower_bound; lia.
Qed.

Lemma probe_rate_100 : forall xs ops1 ops2 j, wf_init xs -> (j < length xs)%nat ->
  routed_data ops2 <= 100 ->
  nprobes (nth j (exec (init xs) (ops1 ++ ops2)) dlink) - nprobes (nth j (exec (init xs) ops1) dlink) <= 1.
Proof.
  intros xs ops1 ops2 j Hx Hj Hr. pose proof (probe_rate_window xs ops1 ops2 j Hx Hj) as H.
  cbn zeta in H. pose proof (Z.div_lt_upper_bound (routed_data ops2 + 99) 100 2). lia.
Qed.

