(** C20P.v — the invariant [Inv] that couples the hub model (any schedule) with the monitor, its
    preservation by every step, and [run_ok].  The steps that move only a counter, the mutex and
    [entries] are instances of [inv_ctl_step]; the others are proved field by field, touched fields only. *)
From Srtla Require Import Base BaseP Hub Run_C20 HubP.
From Coq Require Import ZifyBool Lia.

Definition mk (id tp c : Z) : entry := {| e_id := id; e_topic := tp; e_chan := c |}.

Definition sub_pending (s : state) (t id tp c : Z) : Prop :=
  get_pc s t = SubWait id tp c \/ get_pc s t = SubHold id tp c.

Definition queued (s : state) (c : Z) (mg : msg) (q : nat) : Prop :=
  exists ch, lookup (chans s) c = Some ch /\ In (mg, q) (c_q ch).

Definition closed_in (s : state) (c : Z) : Prop :=
  exists ch, lookup (chans s) c = Some ch /\ c_closed ch = true.

Definition qR (x y : msg * nat) : Prop :=
  (snd x < snd y)%nat \/ (snd x = snd y /\ m_id (fst x) <> m_id (fst y)).
Fixpoint qsorted (l : list (msg * nat)) : Prop :=
  match l with [] => True | x :: r => Forall (qR x) r /\ qsorted r end.

Definition prune_ok (s : state) (m : mstate) (ids : list Z) (pr : list Z) (tp : Z) (rest : list entry) : Prop :=
  forall id, In id ids ->
    is_returned m id = true /\
    (~ In id (ids_of (entries s)) \/ In id pr \/
     exists e, In e rest /\ e_id e = id /\ e_topic e = tp /\ closed_in s (e_chan e)).

Definition pend_ok (s : state) (m : mstate) (t : Z) : Prop :=
  match get_pc s t with
  | Idle => lookup (m_pend m) t = None
  | SubWait _ tp c | SubHold _ tp c =>
    exists p, lookup (m_pend m) t = Some p /\ p_op p = OSub tp c
  | UnsubWait id | UnsubHold id =>
    exists p, lookup (m_pend m) t = Some p /\ p_op p = OUnsub id /\ (p_n p = 1 -> is_returned m id = true)
  | LenWait | LenHold =>
    exists p, lookup (m_pend m) t = Some p /\ p_op p = OLen /\ p_n p <= blen (m_dead m)
  | PubWait tp d =>
    exists p, lookup (m_pend m) t = Some p /\ p_op p = OPub tp d /\ p_lin p = false
  | PubFan tp d rest pr =>
    exists p, lookup (m_pend m) t = Some p /\ (exists tp' d', p_op p = OPub tp' d') /\ p_lin p = true /\
              prune_ok s m (p_ids p) pr tp rest
  | PruneWait pr | PruneHold pr =>
    exists p, lookup (m_pend m) t = Some p /\ (exists tp' d', p_op p = OPub tp' d') /\ p_lin p = true /\
              prune_ok s m (p_ids p) pr 0 []
  end.

Definition dead_ok (s : state) (id : Z) (n : nat) : Prop :=
  ~ In id (ids_of (entries s)) /\
  (forall t tp c, ~ sub_pending s t id tp c) /\
  In id (ids_of (alloc s)) /\
  (n <= npub s)%nat /\
  (get_lastq s id <= n)%nat /\
  (forall c mg q, queued s c mg q -> m_id mg = id -> (q < n)%nat).

Record Inv (s : state) (m : mstate) : Prop := {
  i_lock : forall t, holding (get_pc s t) = true <-> lock s = Some t;
  i_alloc_nd : NoDup (ids_of (alloc s));
  i_alloc_lt : forall e, In e (alloc s) -> e_id e < next_id s;
  i_ent_alloc : incl (entries s) (alloc s);
  i_ent_nd : NoDup (ids_of (entries s));
  i_subp : forall t id tp c, sub_pending s t id tp c ->
             In (mk id tp c) (alloc s) /\ ~ In id (ids_of (entries s));
  i_subp_uniq : forall t t' id tp c tp' c',
             sub_pending s t id tp c -> sub_pending s t' id tp' c' -> t = t';
  i_fan : forall t tp d rest pr, get_pc s t = PubFan tp d rest pr ->
             NoDup (ids_of rest) /\ incl rest (entries s) /\ (0 < npub s)%nat /\
             nth_error (m_pubs m) (pred (npub s)) = Some (tp, d);
  i_q : forall c mg q, queued s c mg q ->
             (q < npub s)%nat /\ In (mk (m_id mg) (m_topic mg) c) (alloc s) /\
             (get_lastq s (m_id mg) <= q)%nat;
  i_qsorted : forall c ch, lookup (chans s) c = Some ch -> qsorted (c_q ch);
  i_lastq : forall id, (get_lastq s id <= npub s)%nat;
  i_fanq : forall t tp d rest pr, get_pc s t = PubFan tp d rest pr ->
             forall id, In id (ids_of rest) ->
               (get_lastq s id < npub s)%nat /\
               forall c mg q, queued s c mg q -> m_id mg = id -> (S q < npub s)%nat;
  i_pend : forall t, pend_ok s m t;
  i_known : forall id k, lookup (m_known m) id = Some k ->
             In (mk id (k_topic k) (k_chan k)) (alloc s);
  i_ret_or_pend : forall e, In e (alloc s) ->
             is_returned m (e_id e) = true \/
             exists t, sub_pending s t (e_id e) (e_topic e) (e_chan e);
  i_ret_excl : forall id t tp c, is_returned m id = true -> ~ sub_pending s t id tp c;
  i_closed : forall c, zmem c (m_closed m) = true -> closed_in s c;
  i_pubs_len : length (m_pubs m) = npub s;
  i_pubs : forall c mg q, queued s c mg q ->
             nth_error (m_pubs m) q = Some (m_topic mg, m_data mg);
  i_last : forall id, (get_last m id <= get_lastq s id)%nat;
  i_dead : forall id n, lookup (m_dead m) id = Some n -> dead_ok s id n;
  i_dead_nd : NoDup (map fst (m_dead m));
  i_nsub : m_nsub m = blen (alloc s)
}.

Lemma lookup_app_Some : forall A (l : list (Z * A)) k v x, lookup l k = Some v -> lookup (l ++ x) k = Some v.
Proof. intros A l k v x H. rewrite lookup_app, H. reflexivity. Qed.

Lemma in_mk_ids : forall id tp c l, In (mk id tp c) l -> In id (ids_of l).
Proof. intros. apply in_ids_of. exists (mk id tp c). split; [assumption|reflexivity]. Qed.

Lemma filter_same_length : forall (f : entry -> bool) l,
  blen (filter f l) = blen l -> filter f l = l.
Proof.
  unfold blen. induction l as [|x r IH]; intro H; cbn in *; [reflexivity|].
  destruct (f x); cbn in *.
  - f_equal. apply IH. lia.
  - pose proof (filter_length_split f r). lia.
Qed.

Lemma qsorted_app : forall l y, qsorted l -> Forall (fun x => qR x y) l -> qsorted (l ++ [y]).
Proof.
  induction l as [|x r IH]; intros y Hs Hf; cbn in *.
  - split; constructor.
  - destruct Hs as [H1 H2]. inversion Hf; subst. split.
    + apply Forall_app. split; [exact H1|constructor; [assumption|constructor]].
    + apply IH; assumption.
Qed.

Lemma find_from_spec : forall l i start k q,
  (start <= q)%nat -> (i <= q)%nat -> nth_error l (q - i) = Some k ->
  exists p, find_from l i start k = Some p /\ (start <= p)%nat /\ (p <= q)%nat.
Proof.
  induction l as [|x r IH]; intros i start k q Hs Hi Hn; cbn.
  - destruct (q - i)%nat; discriminate.
  - destruct ((start <=? i)%nat && (fst x =? fst k) && (snd x =? snd k)) eqn:E.
    + exists i. split; [reflexivity|]. lia.
    + destruct (Nat.eq_dec q i) as [->|Hne].
      * exfalso. rewrite Nat.sub_diag in Hn. cbn in Hn. inversion Hn. subst x.
        assert ((start <=? i)%nat = true) by (apply Nat.leb_le; lia).
        rewrite H, !Z.eqb_refl in E. discriminate.
      * apply IH; try lia.
        replace (q - i)%nat with (S (q - S i))%nat in Hn by lia. exact Hn.
Qed.

Lemma mark_dead_lookup : forall d n id id',
  lookup (mark_dead d n id) id' =
  match lookup d id' with Some x => Some x | None => if id =? id' then Some n else None end.
Proof.
  intros. unfold mark_dead. destruct (lookup d id) eqn:E; [|rewrite lookup_app; cbn [lookup]];
    destruct (lookup d id') eqn:E'; try reflexivity.
  destruct (Z.eqb_spec id id') as [->|_]; [congruence|reflexivity].
Qed.

Lemma mark_dead_nodup : forall d n id, NoDup (map fst d) -> NoDup (map fst (mark_dead d n id)).
Proof.
  intros. unfold mark_dead. destruct (lookup d id) eqn:E; [assumption|].
  rewrite map_app. cbn. apply NoDup_snoc; [assumption|]. apply lookup_None_iff. exact E.
Qed.

Lemma mark_dead_len : forall d n id, blen d <= blen (mark_dead d n id).
Proof.
  intros. unfold mark_dead. destruct (lookup d id); [lia|]. rewrite blen_snoc. lia.
Qed.

Lemma mark_dead_all_lookup : forall ids d n id',
  lookup (mark_dead_all d n ids) id' =
  match lookup d id' with Some x => Some x | None => if zmem id' ids then Some n else None end.
Proof.
  unfold mark_dead_all. induction ids as [|i r IH]; intros d n id'; cbn [fold_left].
  - cbn. destruct (lookup d id'); reflexivity.
  - rewrite IH, mark_dead_lookup. destruct (lookup d id') eqn:E; [reflexivity|].
    cbn [zmem existsb]. fold (zmem id' r). rewrite (Z.eqb_sym id' i). destruct (i =? id'); reflexivity.
Qed.

Lemma mark_dead_all_nodup : forall ids d n, NoDup (map fst d) -> NoDup (map fst (mark_dead_all d n ids)).
Proof.
  unfold mark_dead_all. induction ids as [|i r IH]; intros d n H; cbn [fold_left]; [exact H|].
  apply IH. apply mark_dead_nodup. exact H.
Qed.

Lemma mark_dead_all_len : forall ids d n, blen d <= blen (mark_dead_all d n ids).
Proof.
  unfold mark_dead_all. induction ids as [|i r IH]; intros d n; cbn [fold_left]; [lia|].
  pose proof (mark_dead_len d n i). pose proof (IH (mark_dead d n i) n). lia.
Qed.

Lemma lookup_remove_key : forall A (l : list (Z * A)) k k',
  lookup (remove_key l k) k' = if k =? k' then None else lookup l k'.
Proof.
  induction l as [|[k0 v0] r IH]; intros k k'; cbn.
  - destruct (k =? k'); reflexivity.
  - destruct (k0 =? k) eqn:E; cbn; rewrite ?IH; destruct (k =? k') eqn:E1; destruct (k0 =? k') eqn:E2; try reflexivity; lia.
Qed.

Lemma is_returned_known : forall m id, is_returned m id = true ->
  exists k, lookup (m_known m) id = Some k /\ k_ret k = true.
Proof.
  intros m id H. unfold is_returned in H. destruct (lookup (m_known m) id) as [k|]; [|discriminate].
  exists k. tauto.
Qed.

Lemma must_prune_spec : forall m tp id, In id (must_prune m tp) ->
  exists k, lookup (m_known m) id = Some k /\ k_ret k = true /\ k_topic k = tp /\ zmem (k_chan k) (m_closed m) = true.
Proof.
  intros m tp id H. unfold must_prune in H. apply filter_In in H. destruct H as [_ H].
  destruct (lookup (m_known m) id) as [k|]; [|discriminate]. exists k.
  apply andb_prop in H. destruct H as [H H3]. apply andb_prop in H. destruct H as [H1 H2].
  repeat split; try assumption. lia.
Qed.

Lemma pending_sub_true : forall m t p tp c, lookup (m_pend m) t = Some p -> p_op p = OSub tp c ->
  pending_sub m tp c = true.
Proof.
  intros m t p tp c H Hop. unfold pending_sub. apply existsb_exists. exists (t, p).
  split; [apply lookup_In; exact H|]. cbn. rewrite Hop. lia.
Qed.

Lemma mon_run_one : forall m e m', mon_step m e = MOk m' -> mon_run m [e] = MOk m'.
Proof. intros m e m' H. cbn. rewrite H. reflexivity. Qed.

Lemma mon_run_app : forall a b m,
  mon_run m (a ++ b) = match mon_run m a with MOk m1 => mon_run m1 b | MBad c => MBad c end.
Proof.
  induction a as [|e a IH]; intros b m; cbn; [reflexivity|].
  destruct (mon_step m e); [apply IH|reflexivity].
Qed.

(** a field the step at hand does not touch is the old one up to computation *)
Ltac unchanged HI :=
  first [ exact (i_lock _ _ HI) | exact (i_alloc_nd _ _ HI) | exact (i_alloc_lt _ _ HI)
        | exact (i_ent_alloc _ _ HI) | exact (i_ent_nd _ _ HI) | exact (i_subp _ _ HI)
        | exact (i_subp_uniq _ _ HI) | exact (i_fan _ _ HI) | exact (i_q _ _ HI)
        | exact (i_qsorted _ _ HI) | exact (i_lastq _ _ HI) | exact (i_fanq _ _ HI)
        | exact (i_pend _ _ HI) | exact (i_known _ _ HI) | exact (i_ret_or_pend _ _ HI)
        | exact (i_ret_excl _ _ HI) | exact (i_closed _ _ HI) | exact (i_pubs_len _ _ HI)
        | exact (i_pubs _ _ HI) | exact (i_last _ _ HI) | exact (i_dead _ _ HI)
        | exact (i_dead_nd _ _ HI) | exact (i_nsub _ _ HI) ].

Lemma inv_init : Inv init m_init.
Proof.
  constructor; unfold sub_pending, pend_ok, queued, get_pc, get_lastq, get_last, is_returned; cbn;
    try (intros; contradiction); try (intros; discriminate); try (intros; lia); try (constructor; fail);
    try (intro; split; discriminate).
  - apply incl_refl.
  - intros t id tp c [H|H]; discriminate H.
  - intros t t' id tp c tp' c' [H|H]; discriminate H.
  - intros c mg q [ch [H _]]; discriminate H.
  - intros c mg q [ch [H _]]; discriminate H.
Qed.

(** The monitor's record has no eta rule: a step that leaves the monitor alone is brought under
    the lemmas below, which speak of [set_dead (set_pend m _) _], by this. *)
Lemma inv_mon_eta : forall s m, Inv s (set_pend m (m_pend m)) -> Inv s m.
Proof. intros s m HI. constructor; unchanged HI. Qed.

Definition step_ok (m : mstate) (r : state * list ev) : Prop :=
  exists m', mon_run m (snd r) = MOk m' /\ Inv (fst r) m'.

Lemma step_ok_same : forall s m o, mon_run m o = MOk m -> Inv s m -> step_ok m (s, o).
Proof. intros s m o H HI. exists m. split; assumption. Qed.

Lemma alloc_id_lt : forall s m id, Inv s m -> In id (ids_of (alloc s)) -> id < next_id s.
Proof.
  intros s m id HI H. apply in_ids_of in H. destruct H as [e [H1 H2]]. subst id. exact (i_alloc_lt _ _ HI e H1).
Qed.

Lemma alloc_inj : forall s m e e', Inv s m -> In e (alloc s) -> In e' (alloc s) -> e_id e = e_id e' -> e = e'.
Proof. intros s m e e' HI. exact (NoDup_map_inj e_id _ e e' (i_alloc_nd _ _ HI)). Qed.

Lemma only_holder : forall s m t t', Inv s m -> holding (get_pc s t) = true -> holding (get_pc s t') = true -> t' = t.
Proof.
  intros s m t t' HI H1 H2. apply (i_lock _ _ HI) in H1. apply (i_lock _ _ HI) in H2. congruence.
Qed.

Lemma count_bound : forall s m, Inv s m -> blen (entries s) + blen (m_dead m) <= blen (alloc s).
Proof.
  intros s m HI.
  assert (Hd : forall x, In x (map fst (m_dead m)) -> exists n, dead_ok s x n).
  { intros x Hx. destruct (lookup (m_dead m) x) as [n|] eqn:E; [|destruct (proj1 (lookup_None_iff _ _ _) E Hx)].
    exists n. exact (i_dead _ _ HI _ _ E). }
  assert (H : NoDup (ids_of (entries s) ++ map fst (m_dead m))).
  { apply NoDup_app; [exact (i_ent_nd _ _ HI)|exact (i_dead_nd _ _ HI)|].
    intros x Hx Hx'. destruct (Hd x Hx') as [n [D1 _]]. exact (D1 Hx). }
  assert (Hi : incl (ids_of (entries s) ++ map fst (m_dead m)) (ids_of (alloc s))).
  { apply incl_app; [apply incl_ids; exact (i_ent_alloc _ _ HI)|].
    intros x Hx. destruct (Hd x Hx) as [n [_ [_ [D3 _]]]]. exact D3. }
  pose proof (NoDup_incl_length H Hi) as Hl. rewrite app_length in Hl.
  unfold blen, ids_of in *. rewrite !map_length in Hl. lia.
Qed.

(** Every hub step leaves a state [X] with [pcs X = update (pcs s) t p'].  Outside [pend_ok] the
    invariant reads program counters only through [sub_pending], [holding] and "is a [PubFan]";
    what such an update does to each of the three is stated here once, for any [X]. *)
Definition sub_of (p : pc) : option (Z * Z * Z) :=
  match p with SubWait id tp c | SubHold id tp c => Some (id, tp, c) | _ => None end.

Lemma sub_pending_of : forall s t id tp c, sub_pending s t id tp c <-> sub_of (get_pc s t) = Some (id, tp, c).
Proof.
  intros. unfold sub_pending. destruct (get_pc s t); cbn; split; intro H;
    try (destruct H as [H|H]); try discriminate H; inversion H; auto.
Qed.

Lemma sub_pending_upd : forall (s X : state) t p', pcs X = update (pcs s) t p' ->
  forall t' id tp c, sub_pending X t' id tp c <->
    (t = t' /\ sub_of p' = Some (id, tp, c)) \/ (t <> t' /\ sub_pending s t' id tp c).
Proof.
  intros s X t p' Hpcs t' id tp c. rewrite !sub_pending_of, (get_pc_update s X t p' t' Hpcs).
  destruct (Z.eqb_spec t t'); tauto.
Qed.

Lemma sub_pending_same : forall (s X : state) t p', pcs X = update (pcs s) t p' ->
  sub_of p' = sub_of (get_pc s t) ->
  forall t' id tp c, sub_pending X t' id tp c <-> sub_pending s t' id tp c.
Proof.
  intros s X t p' Hpcs Hs t' id tp c. rewrite (sub_pending_upd s X t p' Hpcs), Hs, !sub_pending_of.
  destruct (Z.eq_dec t t') as [<-|Hn]; tauto.
Qed.

Definition lock_move (s : state) (t : Z) (p' : pc) (l' : option Z) : Prop :=
  (l' = lock s /\ holding p' = holding (get_pc s t)) \/
  (lock s = None /\ l' = Some t /\ holding p' = true) \/
  (holding (get_pc s t) = true /\ l' = None /\ holding p' = false).

Lemma lock_frame : forall s m (X : state) t p', Inv s m -> pcs X = update (pcs s) t p' ->
  lock_move s t p' (lock X) -> forall t', holding (get_pc X t') = true <-> lock X = Some t'.
Proof.
  intros s m X t p' HI Hpcs Hm t'. pose proof (i_lock _ _ HI t') as Ht'. pose proof (i_lock _ _ HI t) as Ht.
  rewrite (get_pc_update s X t p' t' Hpcs).
  destruct (Z.eqb_spec t t') as [<-|Hn]; destruct Hm as [[-> E]|[[L [-> E]]|[Hh [-> E]]]]; rewrite ?E;
    try tauto; try (split; discriminate).
  - rewrite Ht', L. split; [discriminate|congruence].
  - apply Ht in Hh. rewrite Ht', Hh. split; [congruence|discriminate].
Qed.

Lemma no_fan_unlocked : forall X : state, (forall t, holding (get_pc X t) = true <-> lock X = Some t) ->
  lock X = None -> forall t tp d rest pr, get_pc X t <> PubFan tp d rest pr.
Proof.
  intros X HL Hn t tp d rest pr H. pose proof (proj1 (HL t)) as H1. rewrite H, Hn in H1. discriminate (H1 eq_refl).
Qed.

(** the fields about subscribes in flight: they read [sub_pending], [alloc], the ids in [entries]
    and [is_returned] *)
Lemma sub_frame : forall s m (X : state) m', Inv s m ->
  (forall t id tp c, sub_pending X t id tp c <-> sub_pending s t id tp c) ->
  alloc X = alloc s -> incl (ids_of (entries X)) (ids_of (entries s)) ->
  (forall id, is_returned m' id = is_returned m id) ->
  (forall t id tp c, sub_pending X t id tp c -> In (mk id tp c) (alloc X) /\ ~ In id (ids_of (entries X))) /\
  (forall t t' id tp c tp' c', sub_pending X t id tp c -> sub_pending X t' id tp' c' -> t = t') /\
  (forall e, In e (alloc X) ->
     is_returned m' (e_id e) = true \/ exists t, sub_pending X t (e_id e) (e_topic e) (e_chan e)) /\
  (forall id t tp c, is_returned m' id = true -> ~ sub_pending X t id tp c).
Proof.
  intros s m X m' HI Hsub Ha He Hr. rewrite Ha. split; [|split; [|split]].
  - intros t id tp c H. apply Hsub in H. destruct (i_subp _ _ HI _ _ _ _ H) as [H1 H2].
    split; [exact H1|]. intro H3. exact (H2 (He _ H3)).
  - intros t t' id tp c tp' c' H1 H2. apply Hsub in H1. apply Hsub in H2.
    exact (i_subp_uniq _ _ HI _ _ _ _ _ _ _ H1 H2).
  - intros e Hin. rewrite Hr. destruct (i_ret_or_pend _ _ HI e Hin) as [H|[t H]]; [left; exact H|].
    right. exists t. apply Hsub. exact H.
  - intros id t tp c H1 H2. rewrite Hr in H1. apply Hsub in H2. exact (i_ret_excl _ _ HI id t tp c H1 H2).
Qed.

(** the fields about fan-outs in flight, when [t] does not start one (it may advance its own):
    they read the [PubFan] counters, [entries], [npub], [lastq], the queues and [m_pubs] *)
Lemma fan_frame : forall s m (X : state) m' t p', Inv s m -> pcs X = update (pcs s) t p' ->
  (forall tp d rest pr, p' = PubFan tp d rest pr -> exists e pr0, get_pc s t = PubFan tp d (e :: rest) pr0) ->
  (entries X = entries s \/ forall t' tp d rest pr, get_pc X t' <> PubFan tp d rest pr) ->
  npub X = npub s -> lastq X = lastq s -> chans X = chans s -> m_pubs m' = m_pubs m ->
  (forall t' tp d rest pr, get_pc X t' = PubFan tp d rest pr ->
     NoDup (ids_of rest) /\ incl rest (entries X) /\ (0 < npub X)%nat /\
     nth_error (m_pubs m') (pred (npub X)) = Some (tp, d)) /\
  (forall t' tp d rest pr, get_pc X t' = PubFan tp d rest pr ->
     forall id, In id (ids_of rest) ->
       (get_lastq X id < npub X)%nat /\
       forall c mg q, queued X c mg q -> m_id mg = id -> (S q < npub X)%nat).
Proof.
  intros s m X m' t p' HI Hpcs Hadv [He|Hno] Hn Hl Hc Hp;
    [|split; intros t' tp d rest pr H; destruct (Hno _ _ _ _ _ H)].
  unfold get_lastq, queued. rewrite He, Hn, Hl, Hc, Hp.
  assert (Hold : forall t' tp d rest pr, get_pc X t' = PubFan tp d rest pr ->
            get_pc s t' = PubFan tp d rest pr \/ exists e pr0, get_pc s t' = PubFan tp d (e :: rest) pr0).
  { intros t' tp d rest pr H. rewrite (get_pc_update s X t p' t' Hpcs) in H.
    destruct (Z.eqb_spec t t') as [<-|_]; [right; exact (Hadv _ _ _ _ H)|left; exact H]. }
  split; intros t' tp d rest pr H; destruct (Hold _ _ _ _ _ H) as [H0|[e [pr0 H0]]].
  - exact (i_fan _ _ HI _ _ _ _ _ H0).
  - destruct (i_fan _ _ HI _ _ _ _ _ H0) as [F1 [F2 F3]]. split; [inversion F1; assumption|].
    split; [|exact F3]. intros x Hx. apply F2. right. exact Hx.
  - exact (i_fanq _ _ HI _ _ _ _ _ H0).
  - intros id Hin. apply (i_fanq _ _ HI _ _ _ _ _ H0). right. exact Hin.
Qed.

Lemma prune_ok_frame : forall s m s' m' ids pr tp rest,
  (forall id, is_returned m id = true -> is_returned m' id = true) ->
  (forall id, is_returned m id = true -> ~ In id (ids_of (entries s)) -> ~ In id (ids_of (entries s'))) ->
  (forall c, closed_in s c -> closed_in s' c) ->
  prune_ok s m ids pr tp rest -> prune_ok s' m' ids pr tp rest.
Proof.
  intros s m s' m' ids pr tp rest Hr He Hc Hp id Hin.
  destruct (Hp id Hin) as [H0 [H1|[H1|[e [H1 [H2 [H3 H4]]]]]]]; split; auto.
  right. right. exists e. auto.
Qed.

Lemma pend_ok_frame : forall s m s' m' t,
  get_pc s' t = get_pc s t ->
  lookup (m_pend m') t = lookup (m_pend m) t ->
  (forall id, is_returned m id = true -> is_returned m' id = true) ->
  blen (m_dead m) <= blen (m_dead m') ->
  (forall id, is_returned m id = true -> ~ In id (ids_of (entries s)) -> ~ In id (ids_of (entries s'))) ->
  (forall c, closed_in s c -> closed_in s' c) ->
  pend_ok s m t -> pend_ok s' m' t.
Proof.
  intros s m s' m' t Hpc Hl Hr Hd He Hc. unfold pend_ok. rewrite Hpc, Hl.
  destruct (get_pc s t); trivial.
  all: try (intros [p [H1 [H2 [H3 H4]]]]; exists p; repeat split; auto; eapply prune_ok_frame; eauto).
  all: intros [p [H1 [H2 H3]]]; exists p; repeat split; auto; lia.
Qed.

Lemma pend_others : forall s m (X : state) m' t p', Inv s m -> pcs X = update (pcs s) t p' ->
  (forall t', t <> t' -> lookup (m_pend m') t' = lookup (m_pend m) t') ->
  (forall id, is_returned m id = true -> is_returned m' id = true) ->
  blen (m_dead m) <= blen (m_dead m') ->
  (forall id, is_returned m id = true -> ~ In id (ids_of (entries s)) -> ~ In id (ids_of (entries X))) ->
  (forall c, closed_in s c -> closed_in X c) ->
  pend_ok X m' t -> forall t', pend_ok X m' t'.
Proof.
  intros s m X m' t p' HI Hpcs Hpe Hr Hd He Hc Ht t'. destruct (Z.eq_dec t t') as [<-|Hn]; [exact Ht|].
  apply (pend_ok_frame s m); auto; [apply (get_pc_update_neq s X t p' t' Hpcs Hn)|exact (i_pend _ _ HI t')].
Qed.

(** A step of [t] inside the hub that allocates nothing, sends nothing and publishes nothing: it
    moves [t]'s counter, may move the mutex and on release may drop entries, while the monitor
    rewrites [t]'s pending call and may record ids as gone.  Left to the caller are the coupling
    of [t] itself and [dead_ok] of the ids newly recorded. *)
Lemma inv_ctl_step : forall s m t p' l' es' pe' d',
  Inv s m ->
  lock_move s t p' l' ->
  sub_of p' = sub_of (get_pc s t) ->
  (forall tp d rest pr, p' = PubFan tp d rest pr -> exists e pr0, get_pc s t = PubFan tp d (e :: rest) pr0) ->
  (es' = entries s \/ l' = None /\ incl es' (entries s) /\ NoDup (ids_of es')) ->
  (forall t', t <> t' -> lookup pe' t' = lookup (m_pend m) t') ->
  blen (m_dead m) <= blen d' -> NoDup (map fst d') ->
  let X := set_pc (set_lock (set_entries s es') l') t p' in
  let m' := set_dead (set_pend m pe') d' in
  pend_ok X m' t ->
  (forall id n, lookup d' id = Some n -> lookup (m_dead m) id = Some n \/ dead_ok X id n) ->
  Inv X m'.
Proof.
  intros s m t p' l' es' pe' d' HI Hlk Hs Hadv Hes Hpe Hdl Hdn X m' Hpt Hd.
  assert (Hpcs : pcs X = update (pcs s) t p') by reflexivity.
  assert (Hinc : incl es' (entries s)) by (destruct Hes as [->|[_ [H _]]]; [apply incl_refl|exact H]).
  assert (Hnd : NoDup (ids_of es')) by (destruct Hes as [->|[_ [_ H]]]; [exact (i_ent_nd _ _ HI)|exact H]).
  pose proof (incl_ids _ _ Hinc) as Hent.
  pose proof (sub_pending_same s X t p' Hpcs Hs) as Hsub.
  pose proof (lock_frame s m X t p' HI Hpcs Hlk) as HL.
  destruct (sub_frame s m X m' HI Hsub eq_refl Hent (fun _ => eq_refl)) as [S1 [S2 [S3 S4]]].
  destruct (fan_frame s m X m' t p' HI Hpcs Hadv) as [F1 F2]; try reflexivity.
  { destruct Hes as [He|[Hl _]]; [left; exact He|right; exact (no_fan_unlocked X HL Hl)]. }
  constructor; try assumption; try (unchanged HI).
  - intros e He. exact (i_ent_alloc _ _ HI e (Hinc e He)).
  - apply (pend_others s m X m' t p' HI Hpcs); try assumption; try (intros; assumption).
    intros id _ H H2. exact (H (Hent _ H2)).
  - intros id n H. destruct (Hd id n H) as [H1|H1]; [|exact H1].
    destruct (i_dead _ _ HI id n H1) as [D1 [D2 D3]]. split; [intro H2; exact (D1 (Hent _ H2))|]. split; [|exact D3].
    intros t' tp c H2. apply Hsub in H2. exact (D2 t' tp c H2).
Qed.

Definition wait_of (o : op) : option pc :=
  match o with
  | OUnsub id => Some (UnsubWait id) | OPub tp d => Some (PubWait tp d) | OLen => Some LenWait
  | _ => None
  end.

Lemma inv_start_wait : forall s m t o p, Inv s m -> get_pc s t = Idle -> wait_of o = Some p ->
  step_ok m (set_pc s t p, [ECall t o]).
Proof.
  intros s m t o p HI Hidle Hw.
  pose proof (i_pend _ _ HI t) as Hp. unfold pend_ok in Hp. rewrite Hidle in Hp.
  assert (Hhub : is_hub_op o = true) by (destruct o; try discriminate Hw; reflexivity).
  eexists. split.
  { cbn [snd mon_run mon_step]. rewrite Hhub, Hp. reflexivity. }
  cbn [fst].
  (* only [t]'s counter and pending call change; the new counter neither holds, subscribes nor fans *)
  destruct o; try discriminate Hw; injection Hw as <-.
  all: apply (inv_ctl_step s m t _ (lock s) (entries s) _ (m_dead m) HI);
    [left; rewrite Hidle; split; reflexivity | rewrite Hidle; reflexivity | intros; discriminate | left; reflexivity
    | intros t' Hn; apply lookup_update_neq; exact Hn | lia | exact (i_dead_nd _ _ HI) | | intros id' n H; left; exact H].
  all: unfold pend_ok; rewrite get_pc_set_pc, Z.eqb_refl; eexists; (split; [apply lookup_update_eq|]); cbn.
  - split; [reflexivity|]. unfold is_returned. cbn. destruct (lookup (m_known m) id) as [k|]; [|lia].
    destruct (k_ret k); [reflexivity|lia].
  - split; reflexivity.
  - split; [reflexivity|lia].
Qed.

Lemma inv_start_sub : forall s m t tp c, Inv s m -> get_pc s t = Idle ->
  step_ok m (start s t (OSub tp c)).
Proof.
  intros s m t tp c HI Hidle.
  pose proof (i_pend _ _ HI t) as Hp. unfold pend_ok in Hp. rewrite Hidle in Hp.
  unfold step_ok, start. rewrite Hidle. cbn [fst snd].
  set (id := next_id s). set (p := SubWait id tp c).
  match goal with |- context [Inv ?X0] => set (X := X0) end.
  eexists. split.
  { cbn [mon_run mon_step is_hub_op]. rewrite Hp. reflexivity. }
  assert (Hpcs : pcs X = update (pcs s) t p) by reflexivity.
  assert (Hfresh : ~ In id (ids_of (alloc s))).
  { intro H. apply (alloc_id_lt _ _ _ HI) in H. unfold id in H. lia. }
  (* [alloc] and the subscribes in flight both gain [mk id tp c], and [id] is fresh *)
  assert (Hsub : forall t' id' tp' c', sub_pending X t' id' tp' c' <->
            (t = t' /\ Some (id, tp, c) = Some (id', tp', c')) \/ (t <> t' /\ sub_pending s t' id' tp' c'))
    by exact (sub_pending_upd s X t p Hpcs).
  assert (Hold : forall t' id' tp' c', sub_pending s t' id' tp' c' -> id' <> id).
  { intros t' id' tp' c' H ->. exact (Hfresh (in_mk_ids _ _ _ _ (proj1 (i_subp _ _ HI _ _ _ _ H)))). }
  destruct (fan_frame s m X m t p HI Hpcs) as [F1 F2]; try reflexivity;
    [intros; discriminate|left; reflexivity|].
  constructor; try assumption; try (unchanged HI); cbn [alloc entries next_id X].
  - apply (lock_frame s m X t p HI Hpcs). left. rewrite Hidle. split; reflexivity.
  - rewrite ids_of_app. apply NoDup_snoc; [exact (i_alloc_nd _ _ HI)|exact Hfresh].
  - intros e He. apply in_app_or in He. destruct He as [He|[<-|[]]].
    + pose proof (i_alloc_lt _ _ HI e He). unfold id. lia.
    + cbn. lia.
  - apply incl_appl. exact (i_ent_alloc _ _ HI).
  - intros t' id' tp' c' H. apply Hsub in H. destruct H as [[_ H]|[_ H]].
    + inversion H; subst id' tp' c'. split; [apply in_or_app; right; left; reflexivity|].
      intro H2. exact (Hfresh (incl_ids _ _ (i_ent_alloc _ _ HI) _ H2)).
    + destruct (i_subp _ _ HI _ _ _ _ H) as [H2 H3]. split; [apply in_or_app; left; exact H2|exact H3].
  - intros t1 t2 id' tp1 c1 tp2 c2 H1 H2. apply Hsub in H1. apply Hsub in H2.
    destruct H1 as [[<- H1]|[Hn1 H1]]; destruct H2 as [[<- H2]|[Hn2 H2]]; try reflexivity.
    + inversion H1; subst id'. destruct (Hold _ _ _ _ H2 eq_refl).
    + inversion H2; subst id'. destruct (Hold _ _ _ _ H1 eq_refl).
    + exact (i_subp_uniq _ _ HI _ _ _ _ _ _ _ H1 H2).
  - intros c' mg q H. destruct (i_q _ _ HI c' mg q H) as [H1 [H2 H3]].
    split; [exact H1|]. split; [apply in_or_app; left; exact H2|exact H3].
  - apply (pend_others s m X _ t p HI Hpcs); try (intros; assumption); try apply Z.le_refl.
    + intros t' Hn. cbn. apply lookup_update_neq. exact Hn.
    + unfold pend_ok. rewrite (get_pc_update_eq s X t p Hpcs). eexists. split; [cbn; apply lookup_update_eq|reflexivity].
  - intros id' k H. apply in_or_app. left. exact (i_known _ _ HI id' k H).
  - intros e He. apply in_app_or in He. destruct He as [He|[<-|[]]].
    + destruct (i_ret_or_pend _ _ HI e He) as [H|[t' H]]; [left; exact H|]. right. exists t'. apply Hsub.
      right. split; [|exact H]. intros <-. unfold sub_pending in H. rewrite Hidle in H. destruct H; discriminate.
    + right. exists t. apply Hsub. left. split; reflexivity.
  - intros id' t' tp' c' Hr H. apply Hsub in H. destruct H as [[_ H]|[_ H]]; [|exact (i_ret_excl _ _ HI id' t' tp' c' Hr H)].
    inversion H; subst id'. apply is_returned_known in Hr. destruct Hr as [k [Hk _]].
    exact (Hfresh (in_mk_ids _ _ _ _ (i_known _ _ HI _ _ Hk))).
  - intros id' n H. destruct (i_dead _ _ HI id' n H) as [D1 [D2 [D3 D4]]]. split; [exact D1|]. split; [|split; [|exact D4]].
    + intros t' tp' c' H1. apply Hsub in H1. destruct H1 as [[_ H1]|[_ H1]]; [|exact (D2 t' tp' c' H1)].
      inversion H1; subst id'. exact (Hfresh D3).
    + exact (incl_ids (alloc s) (alloc X) (incl_appl _ (incl_refl _)) _ D3).
  - cbn. rewrite (i_nsub _ _ HI), blen_snoc. reflexivity.
Qed.

Lemma queued_update : forall s c ch c' mg q,
  queued (set_chans s (update (chans s) c ch)) c' mg q ->
  (c = c' /\ In (mg, q) (c_q ch)) \/ (c <> c' /\ queued s c' mg q).
Proof.
  intros s c ch c' mg q [ch' [H1 H2]]. cbn in H1. rewrite lookup_update in H1.
  destruct (Z.eqb_spec c c') as [E|E]; [left; inversion H1; subst; tauto|right; split; [exact E|exists ch'; tauto]].
Qed.

(** what the invariant asks of a line newly put into the queue of [c]: the fields that speak of
    queued lines, instantiated at it; the last two say that no fan-out has this id still before
    it and that the id is not gone *)
Definition fresh_line (s : state) (m : mstate) (c : Z) (mg : msg) (q : nat) : Prop :=
  ((q < npub s)%nat /\ In (mk (m_id mg) (m_topic mg) c) (alloc s) /\ (get_lastq s (m_id mg) <= q)%nat) /\
  nth_error (m_pubs m) q = Some (m_topic mg, m_data mg) /\
  (forall t tp d rest pr, get_pc s t = PubFan tp d rest pr -> ~ In (m_id mg) (ids_of rest)) /\
  In (m_id mg) (ids_of (entries s)).

Lemma inv_chan_update : forall s m c ch, Inv s m ->
  (forall mg q, In (mg, q) (c_q ch) -> queued s c mg q \/ fresh_line s m c mg q) ->
  qsorted (c_q ch) -> (closed_in s c -> c_closed ch = true) ->
  Inv (set_chans s (update (chans s) c ch)) m.
Proof.
  intros s m c ch HI Hin Hs Hc. set (X := set_chans s (update (chans s) c ch)).
  assert (Hq : forall c' mg q, queued X c' mg q -> queued s c' mg q \/ fresh_line s m c' mg q).
  { intros c' mg q H. apply queued_update in H. destruct H as [[<- H]|[_ H]]; [exact (Hin _ _ H)|left; exact H]. }
  assert (Hcl : forall c', closed_in s c' -> closed_in X c').
  { intros c' [ch' [H1 H2]]. unfold closed_in. cbn. rewrite lookup_update.
    destruct (Z.eqb_spec c c') as [<-|_]; [exists ch|exists ch']; split; auto. apply Hc. exists ch'. auto. }
  constructor; try (unchanged HI).
  - intros c' mg q H. destruct (Hq _ _ _ H) as [H1|[H1 _]]; [exact (i_q _ _ HI _ _ _ H1)|exact H1].
  - intros c' ch' H. cbn in H. rewrite lookup_update in H.
    destruct (c =? c'); [inversion H; subst; exact Hs|exact (i_qsorted _ _ HI c' ch' H)].
  - intros t tp d rest pr H id Hid. destruct (i_fanq _ _ HI t tp d rest pr H id Hid) as [H1 H2].
    split; [exact H1|]. intros c' mg q Hqq Hm. destruct (Hq _ _ _ Hqq) as [H3|[_ [_ [H3 _]]]]; [exact (H2 _ _ _ H3 Hm)|].
    subst id. destruct (H3 _ _ _ _ _ H Hid).
  - intro t. apply (pend_ok_frame s m); try (intros; assumption); try reflexivity; try lia; try exact Hcl.
    exact (i_pend _ _ HI t).
  - intros c' H. apply Hcl. exact (i_closed _ _ HI c' H).
  - intros c' mg q H. destruct (Hq _ _ _ H) as [H1|[_ [H1 _]]]; [exact (i_pubs _ _ HI _ _ _ H1)|exact H1].
  - intros id n H. destruct (i_dead _ _ HI id n H) as [D1 [D2 [D3 [D4 [D5 D6]]]]].
    repeat split; try assumption. intros c' mg q Hqq Hm. destruct (Hq _ _ _ Hqq) as [H3|[_ [_ [_ H3]]]]; [exact (D6 _ _ _ H3 Hm)|].
    subst id. destruct (D1 H3).
Qed.

Lemma inv_start_chan : forall s m t c cap, Inv s m -> get_pc s t = Idle -> step_ok m (start s t (OChan c cap)).
Proof.
  intros s m t c cap HI Hidle. unfold start. rewrite Hidle.
  destruct (lookup (chans s) c) eqn:E; apply step_ok_same; try reflexivity; [exact HI|].
  apply inv_chan_update; [exact HI|intros mg q []|exact I|]. intros [ch [H _]]. congruence.
Qed.

Lemma inv_mclosed : forall s m c, Inv s m -> closed_in s c ->
  Inv s {| m_pend := m_pend m; m_known := m_known m; m_pubs := m_pubs m; m_last := m_last m;
           m_dead := m_dead m; m_closed := c :: m_closed m; m_nsub := m_nsub m |}.
Proof.
  intros s m c HI Hc. constructor; try (unchanged HI).
  intro c'. cbn. destruct (Z.eqb_spec c' c) as [->|_]; [intro; exact Hc|exact (i_closed _ _ HI c')].
Qed.

Lemma inv_start_close : forall s m t c, Inv s m -> get_pc s t = Idle ->
  step_ok m (start s t (OClose c)).
Proof.
  intros s m t c HI Hidle. unfold step_ok, start. rewrite Hidle.
  destruct (lookup (chans s) c) as [ch|]; cbn [fst snd mon_run mon_step]; eexists; (split; [reflexivity|]).
  all: apply inv_mclosed; [apply inv_chan_update; [exact HI|intros mg0 q []|exact I|reflexivity]|].
  all: eexists; split; [cbn; apply lookup_update_eq|reflexivity].
Qed.

Definition set_lastq (s : state) (l : list (Z * nat)) : state :=
  {| entries := entries s; next_id := next_id s; lock := lock s; chans := chans s;
     pcs := pcs s; npub := npub s; alloc := alloc s; lastq := l |}.

Lemma get_lastq_set : forall s id n id',
  get_lastq (set_lastq s (update (lastq s) id n)) id' = if id =? id' then n else get_lastq s id'.
Proof. intros. unfold get_lastq, set_lastq; cbn. rewrite lookup_update. destruct (id =? id'); reflexivity. Qed.

(** [id] receives publication [q], older than all still queued for it; the monitor matched it
    at [p <= q] *)
Lemma inv_recv_state : forall s m id q kn p,
  Inv s m ->
  (q < npub s)%nat ->
  (forall c' mg' q', queued s c' mg' q' -> m_id mg' = id -> (q < q')%nat) ->
  (forall t tp' d rest pr, get_pc s t = PubFan tp' d rest pr -> In id (ids_of rest) -> (S q < npub s)%nat) ->
  (forall n, lookup (m_dead m) id = Some n -> (q < n)%nat) ->
  (forall id', match lookup kn id' with Some k => k_ret k | None => false end = is_returned m id') ->
  (forall id' k, lookup kn id' = Some k -> In (mk id' (k_topic k) (k_chan k)) (alloc s)) ->
  (p <= q)%nat ->
  Inv (set_lastq s (update (lastq s) id (S q)))
      {| m_pend := m_pend m; m_known := kn; m_pubs := m_pubs m; m_last := update (m_last m) id (S p);
         m_dead := m_dead m; m_closed := m_closed m; m_nsub := m_nsub m |}.
Proof.
  intros s m id q kn p HI Hq Hnewer Hfan Hdead Hret Hkn Hpq.
  set (X := set_lastq s (update (lastq s) id (S q))).
  set (m' := {| m_pend := m_pend m; m_known := kn; m_pubs := m_pubs m; m_last := update (m_last m) id (S p);
         m_dead := m_dead m; m_closed := m_closed m; m_nsub := m_nsub m |}).
  assert (Hret' : forall id', is_returned m' id' = is_returned m id') by (intro; apply Hret).
  destruct (sub_frame s m X m' HI (fun _ _ _ _ => iff_refl _) eq_refl (incl_refl _) Hret') as [_ [_ [S3 S4]]].
  (* [get_lastq] changes at [id] only, and there every bound on it is one of the hypotheses *)
  constructor; try assumption; try (unchanged HI).
  - intros c' mg' q' H. destruct (i_q _ _ HI c' mg' q' H) as [H1 [H2 H3]]. split; [exact H1|]. split; [exact H2|].
    unfold X. rewrite get_lastq_set. destruct (Z.eqb_spec id (m_id mg')) as [E|_]; [|exact H3].
    pose proof (Hnewer _ _ _ H (eq_sym E)). lia.
  - intro id'. unfold X. rewrite get_lastq_set. destruct (id =? id'); [cbn [npub set_lastq]; lia|exact (i_lastq _ _ HI id')].
  - intros t tp' d rest pr H id' Hin. destruct (i_fanq _ _ HI t tp' d rest pr H id' Hin) as [H1 H2].
    split; [|exact H2]. unfold X. rewrite get_lastq_set. destruct (Z.eqb_spec id id') as [<-|_]; [|exact H1].
    exact (Hfan _ _ _ _ _ H Hin).
  - intro t. refine (pend_ok_frame s m X m' t _ _ _ _ _ _ (i_pend _ _ HI t)); try reflexivity; try (intros; assumption);
      try (intros id' H; rewrite Hret'; exact H); try (cbn; lia).
  - intro id'. unfold X, get_last. rewrite get_lastq_set. cbn [m_last m']. rewrite lookup_update. fold (get_last m id').
    destruct (id =? id'); [lia|exact (i_last _ _ HI id')].
  - intros id' n H. destruct (i_dead _ _ HI id' n H) as [D1 [D2 [D3 [D4 [D5 D6]]]]].
    repeat split; try assumption. unfold X. rewrite get_lastq_set. destruct (Z.eqb_spec id id') as [<-|_]; [|exact D5].
    exact (Hdead n H).
Qed.

Definition recv_known (m : mstate) (c : Z) (mg : msg) : option (list (Z * known)) :=
  match lookup (m_known m) (m_id mg) with
  | Some k => if (k_topic k =? m_topic mg) && (k_chan k =? c) then Some (m_known m) else None
  | None => if pending_sub m (m_topic mg) c
            then Some (update (m_known m) (m_id mg) {| k_topic := m_topic mg; k_chan := c; k_ret := false |})
            else None
  end.

Lemma mon_recv : forall m c mg kn p,
  recv_known m c mg = Some kn ->
  find_from (m_pubs m) O (get_last m (m_id mg)) (m_topic mg, m_data mg) = Some p ->
  (forall n, lookup (m_dead m) (m_id mg) = Some n -> (p < n)%nat) ->
  mon_step m (ERecv c (Some mg)) =
  MOk {| m_pend := m_pend m; m_known := kn; m_pubs := m_pubs m; m_last := update (m_last m) (m_id mg) (S p);
         m_dead := m_dead m; m_closed := m_closed m; m_nsub := m_nsub m |}.
Proof.
  intros m c mg kn p Hk Hf Hd. unfold recv_known in Hk. unfold mon_step. rewrite Hk, Hf.
  destruct (lookup (m_dead m) (m_id mg)) as [n|]; [|reflexivity].
  pose proof (Hd n eq_refl). destruct (n <=? p)%nat eqn:E; [apply Nat.leb_le in E; lia|reflexivity].
Qed.

Lemma recv_known_ok : forall s m c mg, Inv s m -> In (mk (m_id mg) (m_topic mg) c) (alloc s) ->
  exists kn, recv_known m c mg = Some kn /\
    (forall id', match lookup kn id' with Some k => k_ret k | None => false end = is_returned m id') /\
    (forall id' k, lookup kn id' = Some k -> In (mk id' (k_topic k) (k_chan k)) (alloc s)).
Proof.
  intros s m c mg HI Ha. unfold recv_known. destruct (lookup (m_known m) (m_id mg)) as [k|] eqn:E.
  - pose proof (i_known _ _ HI _ _ E) as Hk.
    pose proof (alloc_inj _ _ _ _ HI Hk Ha eq_refl) as Heq. inversion Heq as [[H1 H2]].
    rewrite !Z.eqb_refl. cbn. exists (m_known m). split; [reflexivity|]. split; [intro; reflexivity|].
    exact (i_known _ _ HI).
  - destruct (i_ret_or_pend _ _ HI _ Ha) as [H|[t H]].
    + cbn in H. unfold is_returned in H. rewrite E in H. discriminate.
    + cbn in H. pose proof (i_pend _ _ HI t) as Hp. unfold pend_ok in Hp.
      assert (Hps : pending_sub m (m_topic mg) c = true).
      { destruct H as [H|H]; rewrite H in Hp; destruct Hp as [p [Hp1 Hp2]]; eapply pending_sub_true; eauto. }
      rewrite Hps. eexists. split; [reflexivity|]. split.
      * intro id'. rewrite lookup_update. unfold is_returned. destruct (Z.eqb_spec (m_id mg) id') as [<-|_]; [|reflexivity].
        rewrite E. reflexivity.
      * intros id' k Hl. rewrite lookup_update in Hl. destruct (Z.eqb_spec (m_id mg) id') as [<-|_].
        -- inversion Hl. exact Ha.
        -- exact (i_known _ _ HI _ _ Hl).
Qed.

Lemma inv_start_recv : forall s m t c, Inv s m -> get_pc s t = Idle ->
  step_ok m (start s t (ORecv c)).
Proof.
  intros s m t c HI Hidle. unfold start. rewrite Hidle.
  destruct (lookup (chans s) c) as [ch|] eqn:E; [|apply step_ok_same; [reflexivity|exact HI]].
  destruct (c_q ch) as [|[mg q] r] eqn:Eq; [apply step_ok_same; [reflexivity|exact HI]|].
  unfold step_ok. cbn [fst snd mon_run].
  assert (Hqd : queued s c mg q) by (exists ch; split; [exact E|rewrite Eq; left; reflexivity]).
  destruct (i_q _ _ HI _ _ _ Hqd) as [Hq1 [Hq2 Hq3]].
  pose proof (i_pubs _ _ HI _ _ _ Hqd) as Hnth.
  pose proof (i_qsorted _ _ HI _ _ E) as Hsort. rewrite Eq in Hsort. destruct Hsort as [Hfa Hsr].
  set (ch' := {| c_cap := c_cap ch; c_q := r; c_closed := c_closed ch |}).
  assert (HI1 : Inv (set_chans s (update (chans s) c ch')) m).
  { apply inv_chan_update; [exact HI| |exact Hsr|].
    - intros mg0 q0 Hx. left. exists ch. split; [exact E|rewrite Eq; right; exact Hx].
    - intros [ch0 [H1 H2]]. cbn. congruence. }
  destruct (recv_known_ok _ _ c mg HI Hq2) as [kn [Hk1 [Hk2 Hk3]]].
  destruct (find_from_spec (m_pubs m) O (get_last m (m_id mg)) (m_topic mg, m_data mg) q) as [p [Hf1 [Hf2 Hf3]]].
  { pose proof (i_last _ _ HI (m_id mg)). lia. }
  { lia. }
  { rewrite Nat.sub_0_r. exact Hnth. }
  assert (Hdead : forall n, lookup (m_dead m) (m_id mg) = Some n -> (q < n)%nat).
  { intros n H. destruct (i_dead _ _ HI _ _ H) as [_ [_ [_ [_ [_ D6]]]]]. exact (D6 _ _ _ Hqd eq_refl). }
  eexists. split.
  { rewrite (mon_recv m c mg kn p Hk1 Hf1); [reflexivity|]. intros n H. pose proof (Hdead n H). lia. }
  refine (inv_recv_state _ m (m_id mg) q kn p HI1 Hq1 _ _ Hdead Hk2 Hk3 Hf3).
  - (* what is left in the queue of [c] is newer by [qsorted]; no other channel carries this id *)
    intros c' mg' q' H Hid. apply queued_update in H. destruct H as [[<- H]|[Hne H]].
    + rewrite Forall_forall in Hfa. destruct (Hfa _ H) as [H1|[H1 H2]]; cbn in *; [exact H1|congruence].
    + exfalso. destruct (i_q _ _ HI _ _ _ H) as [_ [H2 _]].
      pose proof (alloc_inj _ _ _ _ HI H2 Hq2 Hid) as Heq. inversion Heq. congruence.
  - intros t' tp' d rest pr H Hin.
    destruct (i_fanq _ _ HI t' tp' d rest pr H _ Hin) as [_ H2]. exact (H2 _ _ _ Hqd eq_refl).
Qed.

Lemma holding_pend : forall s m h, Inv s m -> holding (get_pc s h) = true ->
  exists p, lookup (m_pend m) h = Some p.
Proof.
  intros s m h HI Hh. pose proof (i_pend _ _ HI h) as Hp. unfold pend_ok in Hp.
  destruct (get_pc s h); cbn in Hh; try discriminate Hh; destruct Hp as [p [Hp _]]; exists p; exact Hp.
Qed.

(** blocked: the holder's call is in progress, so the monitor sees another pending call *)
Lemma blocked_step_ok : forall s m t h, Inv s m -> lock s = Some h -> waiting (get_pc s t) = true ->
  step_ok m (s, [EBlocked t]).
Proof.
  intros s m t h HI Hl Hw. apply step_ok_same; [|exact HI]. apply mon_run_one.
  assert (Hh : holding (get_pc s h) = true) by (apply (i_lock _ _ HI); exact Hl).
  assert (Hne : h <> t) by (intros ->; destruct (get_pc s t); cbn in *; congruence).
  destruct (holding_pend _ _ _ HI Hh) as [p Hp].
  assert (Ho : other_pending m t = true).
  { unfold other_pending. apply existsb_exists. exists (h, p). split; [apply lookup_In; exact Hp|cbn; lia]. }
  unfold mon_step. destruct (lookup (m_pend m) t) as [p0|]; [|reflexivity].
  destruct (p_op p0); try reflexivity. rewrite Ho. reflexivity.
Qed.

(** the counter goes from [..Wait] to [..Hold] with the same arguments, so the coupling of [t]
    reads the same *)
Lemma inv_acquire : forall s m t, Inv s m -> waiting (get_pc s t) = true ->
  (forall tp d, get_pc s t <> PubWait tp d) -> step_ok m (step_task s t).
Proof.
  intros s m t HI Hw Hnp. unfold step_task.
  pose proof (i_pend _ _ HI t) as Hp. unfold pend_ok in Hp.
  destruct (get_pc s t) eqn:Hpc; try discriminate Hw; try (destruct (Hnp _ _ eq_refl)); cbn [acquired].
  all: destruct (lock s) as [h|] eqn:Hl; [apply (blocked_step_ok s m t h HI Hl); rewrite Hpc; reflexivity|].
  all: (apply step_ok_same; [reflexivity|]); apply inv_mon_eta.
  all: apply (inv_ctl_step s m t _ (Some t) (entries s) (m_pend m) (m_dead m) HI);
    [right; left; auto | rewrite Hpc; reflexivity | intros; discriminate | left; reflexivity
    | reflexivity | lia | exact (i_dead_nd _ _ HI) | | intros id' n H; left; exact H].
  all: unfold pend_ok; rewrite get_pc_set_pc, Z.eqb_refl; exact Hp.
Qed.

Lemma inv_pub_acquire : forall s m t tp d, Inv s m -> get_pc s t = PubWait tp d ->
  step_ok m (step_task s t).
Proof.
  intros s m t tp d HI Hpc. unfold step_task. rewrite Hpc. cbn [acquired].
  destruct (lock s) as [h|] eqn:Hl; [apply (blocked_step_ok s m t h HI Hl); rewrite Hpc; reflexivity|].
  unfold step_ok. cbn [fst snd mon_run].
  pose proof (i_pend _ _ HI t) as Hp. unfold pend_ok in Hp. rewrite Hpc in Hp. destruct Hp as [p0 [Hp1 [Hp2 Hp3]]].
  set (p' := PubFan tp d (entries s) []).
  match goal with |- context [Inv ?X0] => set (X := X0) end.
  eexists. split.
  { unfold mon_step. rewrite Hp1, Hp2, Hp3. cbn [op_eqb negb andb]. rewrite !Z.eqb_refl. cbn [andb]. reflexivity. }
  assert (Hpcs : pcs X = update (pcs s) t p') by reflexivity.
  pose proof (sub_pending_same s X t p' Hpcs) as Hsub. rewrite Hpc in Hsub. specialize (Hsub eq_refl).
  destruct (sub_frame s m X m HI Hsub eq_refl (incl_refl _) (fun _ => eq_refl)) as [S1 [S2 [S3 S4]]].
  (* the mutex was free, so the only fan-out is the new one, over all of [entries] *)
  assert (Hfan : forall t' tp' d' rest pr, get_pc X t' = PubFan tp' d' rest pr ->
            tp' = tp /\ d' = d /\ rest = entries s).
  { intros t' tp' d' rest pr H. rewrite (get_pc_update s X t p' t' Hpcs) in H. destruct (t =? t').
    - inversion H. tauto.
    - destruct (no_fan_unlocked s (i_lock _ _ HI) Hl _ _ _ _ _ H). }
  (* the publication count and [m_pubs] grow by one together: old bounds [q < npub] get slack *)
  constructor; try assumption; try (unchanged HI); cbn [npub X set_pc set_lock m_pubs].
  - apply (lock_frame s m X t p' HI Hpcs). right. left. auto.
  - intros t' tp' d' rest pr H. destruct (Hfan _ _ _ _ _ H) as [-> [-> ->]].
    split; [exact (i_ent_nd _ _ HI)|]. split; [apply incl_refl|]. split; [lia|]. cbn [pred].
    rewrite nth_error_app2, (i_pubs_len _ _ HI), Nat.sub_diag by (rewrite (i_pubs_len _ _ HI); lia). reflexivity.
  - intros c mg q H. destruct (i_q _ _ HI c mg q H) as [H1 H2]. split; [lia|exact H2].
  - intro id. pose proof (i_lastq _ _ HI id) as H. change (get_lastq X id) with (get_lastq s id). lia.
  - intros t' tp' d' rest pr H id Hin. split.
    + pose proof (i_lastq _ _ HI id). change (get_lastq X id) with (get_lastq s id). lia.
    + intros c mg q Hq _. destruct (i_q _ _ HI c mg q Hq) as [H1 _]. lia.
  - apply (pend_others s m X _ t p' HI Hpcs); try (intros; assumption); try apply Z.le_refl.
    + intros t' Hn. cbn. apply lookup_update_neq. exact Hn.
    + (* every id the monitor expects this publish to prune is known, returned and closed: it is
         either gone from [entries] already or is the entry of that id *)
      unfold pend_ok. rewrite (get_pc_update_eq s X t p' Hpcs). unfold p'. eexists. split; [cbn; apply lookup_update_eq|].
      cbn [p_op p_lin p_ids]. split; [exists tp, d; reflexivity|]. split; [reflexivity|].
      intros id Hin. destruct (must_prune_spec _ _ _ Hin) as [k [K1 [K2 [K3 K4]]]].
      split; [unfold is_returned; cbn; rewrite K1; exact K2|].
      destruct (in_dec Z.eq_dec id (ids_of (entries s))) as [Hi|Hi]; [|left; exact Hi].
      right. right. apply in_ids_of in Hi. destruct Hi as [e [He1 He2]]. exists e.
      pose proof (i_known _ _ HI _ _ K1) as Ha.
      pose proof (alloc_inj _ _ _ _ HI (i_ent_alloc _ _ HI _ He1) Ha He2) as Heq.
      subst e. cbn. repeat split; try assumption. exact (i_closed _ _ HI _ K4).
  - rewrite app_length, (i_pubs_len _ _ HI). cbn. lia.
  - intros c mg q H. destruct (i_q _ _ HI c mg q H) as [H1 _].
    rewrite nth_error_app1 by (rewrite (i_pubs_len _ _ HI); exact H1). exact (i_pubs _ _ HI c mg q H).
  - intros id n H. destruct (i_dead _ _ HI id n H) as [D1 [D2 [D3 [D4 [D5 D6]]]]].
    repeat split; try assumption; [|cbn; lia]. intros t' tp' c Hs. apply Hsub in Hs. exact (D2 t' tp' c Hs).
Qed.

Definition m_after_sub (m : mstate) (t id tp c : Z) : mstate :=
  set_known (set_pend m (remove_key (m_pend m) t)) (update (m_known m) id {| k_topic := tp; k_chan := c; k_ret := true |}).

Lemma is_returned_after_sub : forall m t id tp c id',
  is_returned (m_after_sub m t id tp c) id' = if id =? id' then true else is_returned m id'.
Proof. intros. unfold is_returned, m_after_sub; cbn. rewrite lookup_update. destruct (id =? id'); reflexivity. Qed.

Lemma inv_sub_hold : forall s m t id tp c, Inv s m -> get_pc s t = SubHold id tp c ->
  step_ok m (step_task s t).
Proof.
  intros s m t id tp c HI Hpc. unfold step_ok, step_task. rewrite Hpc. cbn [acquired fst snd mon_run].
  assert (Hsp : sub_pending s t id tp c) by (right; exact Hpc).
  destruct (i_subp _ _ HI _ _ _ _ Hsp) as [Ha Hne].
  pose proof (i_pend _ _ HI t) as Hp. unfold pend_ok in Hp. rewrite Hpc in Hp. destruct Hp as [p0 [Hp1 Hp2]].
  exists (m_after_sub m t id tp c). split.
  { unfold mon_step. rewrite Hp1, Hp2. destruct (lookup (m_known m) id) as [k|] eqn:E; [|reflexivity].
    destruct (k_ret k) eqn:Er.
    - exfalso. apply (i_ret_excl _ _ HI id t tp c); [unfold is_returned; rewrite E; exact Er|exact Hsp].
    - pose proof (alloc_inj _ _ _ _ HI (i_known _ _ HI _ _ E) Ha eq_refl) as Heq.
      inversion Heq as [[H1 H2]]. rewrite !Z.eqb_refl. reflexivity. }
  set (es := entries s ++ [{| e_id := id; e_topic := tp; e_chan := c |}]).
  set (X := release_to (set_entries s es) t Idle).
  set (m' := m_after_sub m t id tp c).
  assert (Hpcs : pcs X = update (pcs s) t Idle) by reflexivity.
  (* [id] moves from the subscribes in flight to [entries] and becomes returned; no other
     subscribe in flight has this id *)
  assert (Hsub : forall t' id' tp' c', sub_pending X t' id' tp' c' <-> t <> t' /\ sub_pending s t' id' tp' c').
  { intros. rewrite (sub_pending_upd s X t Idle Hpcs). cbn. intuition discriminate. }
  assert (Hoth : forall t' id' tp' c', sub_pending X t' id' tp' c' -> id' <> id).
  { intros t' id' tp' c' H ->. apply Hsub in H. exact (proj1 H (i_subp_uniq _ _ HI _ _ _ _ _ _ _ Hsp (proj2 H))). }
  assert (Hids : forall id', In id' (ids_of es) <-> In id' (ids_of (entries s)) \/ id' = id).
  { intro id'. unfold es. rewrite ids_of_app, in_app_iff. cbn. intuition congruence. }
  assert (HL : forall t', holding (get_pc X t') = true <-> lock X = Some t').
  { apply (lock_frame s m X t Idle HI Hpcs). right. right. rewrite Hpc. auto. }
  destruct (fan_frame s m X m' t Idle HI Hpcs) as [F1 F2]; try reflexivity;
    [intros; discriminate|right; exact (no_fan_unlocked X HL eq_refl)|].
  constructor; try assumption; try (unchanged HI); cbn [entries X release_to set_pc set_lock set_entries].
  - unfold es. apply incl_app; [exact (i_ent_alloc _ _ HI)|]. intros e [<-|[]]. exact Ha.
  - unfold es. rewrite ids_of_app. apply NoDup_snoc; [exact (i_ent_nd _ _ HI)|exact Hne].
  - intros t' id' tp' c' H. pose proof (Hoth _ _ _ _ H) as Hn. apply Hsub in H.
    destruct (i_subp _ _ HI _ _ _ _ (proj2 H)) as [H3 H4]. split; [exact H3|]. rewrite Hids. tauto.
  - intros t1 t2 id' tp1 c1 tp2 c2 H1 H2. apply Hsub in H1. apply Hsub in H2.
    exact (i_subp_uniq _ _ HI _ _ _ _ _ _ _ (proj2 H1) (proj2 H2)).
  - apply (pend_others s m X m' t Idle HI Hpcs); try (intros; assumption); try apply Z.le_refl.
    + intros t' Hn. cbn. rewrite lookup_remove_key. destruct (Z.eqb_spec t t'); [contradiction|reflexivity].
    + intros id' H. unfold m'. rewrite is_returned_after_sub, H. destruct (id =? id'); reflexivity.
    + intros id' Hr H. change (entries X) with es. rewrite Hids. intros [H5| ->]; [tauto|].
      exact (i_ret_excl _ _ HI id t tp c Hr Hsp).
    + unfold pend_ok. rewrite (get_pc_update_eq s X t Idle Hpcs). cbn. rewrite lookup_remove_key, Z.eqb_refl. reflexivity.
  - intros id' k H. cbn in H. rewrite lookup_update in H. destruct (Z.eqb_spec id id') as [<-|_].
    + inversion H. exact Ha.
    + exact (i_known _ _ HI _ _ H).
  - intros e He. unfold m'. rewrite is_returned_after_sub. destruct (Z.eqb_spec id (e_id e)) as [E|E]; [left; reflexivity|].
    destruct (i_ret_or_pend _ _ HI e He) as [H|[t' H]]; [left; exact H|]. right. exists t'. apply Hsub.
    split; [|exact H]. intros <-. destruct H as [H|H]; rewrite Hpc in H; inversion H; congruence.
  - intros id' t' tp' c' Hr H. pose proof (Hoth _ _ _ _ H) as Hn. apply Hsub in H.
    unfold m' in Hr. rewrite is_returned_after_sub in Hr. destruct (Z.eqb_spec id id'); [congruence|].
    exact (i_ret_excl _ _ HI id' t' tp' c' Hr (proj2 H)).
  - intros id' n H. destruct (i_dead _ _ HI id' n H) as [D1 [D2 D3]]. split; [|split; [|exact D3]].
    + change (entries X) with es. rewrite Hids. intros [H5| ->]; [tauto|]. exact (D2 t tp c Hsp).
    + intros t' tp' c' Hs. apply Hsub in Hs. exact (D2 t' tp' c' (proj2 Hs)).
Qed.

Lemma inv_return : forall s m t es' d',
  Inv s m -> holding (get_pc s t) = true -> sub_of (get_pc s t) = None ->
  incl es' (entries s) -> NoDup (ids_of es') ->
  blen (m_dead m) <= blen d' -> NoDup (map fst d') ->
  (forall id n, lookup d' id = Some n -> lookup (m_dead m) id = Some n \/
     n = npub s /\ ~ In id (ids_of es') /\ (is_returned m id = true \/ In id (ids_of (entries s)))) ->
  Inv (release_to (set_entries s es') t Idle) (set_dead (set_pend m (remove_key (m_pend m) t)) d').
Proof.
  intros s m t es' d' HI Hh Hs Hinc Hnd Hdl Hdn Hd.
  apply (inv_ctl_step s m t Idle None es' _ d' HI); auto.
  - right. right. auto.
  - intros; discriminate.
  - intros t' Hn. rewrite lookup_remove_key. destruct (Z.eqb_spec t t'); [contradiction|reflexivity].
  - unfold pend_ok. rewrite get_pc_set_pc, Z.eqb_refl. cbn. rewrite lookup_remove_key, Z.eqb_refl. reflexivity.
  - (* an id out of [entries] that was registered or returned: nobody is subscribing it, it is
       allocated, and all that is queued or was received is older than the current count *)
    intros id n H. destruct (Hd id n H) as [H1|[-> [Hni Hor]]]; [left; exact H1|right].
    split; [exact Hni|]. split; [|split; [|split; [exact (le_n _)|split]]].
    + intros t' tp c H3. apply (sub_pending_same s (release_to (set_entries s es') t Idle) t Idle eq_refl (eq_sym Hs)) in H3. destruct Hor as [Hr|Hi].
      * exact (i_ret_excl _ _ HI id t' tp c Hr H3).
      * exact (proj2 (i_subp _ _ HI _ _ _ _ H3) Hi).
    + destruct Hor as [Hr|Hi]; [|exact (incl_ids _ _ (i_ent_alloc _ _ HI) id Hi)].
      apply is_returned_known in Hr. destruct Hr as [k [Hk _]]. exact (in_mk_ids _ _ _ _ (i_known _ _ HI _ _ Hk)).
    + exact (i_lastq _ _ HI id).
    + intros c mg q Hq _. exact (proj1 (i_q _ _ HI _ _ _ Hq)).
Qed.

Lemma inv_len_hold : forall s m t, Inv s m -> get_pc s t = LenHold ->
  step_ok m (step_task s t).
Proof.
  intros s m t HI Hpc. unfold step_ok, step_task. rewrite Hpc. cbn [acquired fst snd mon_run].
  pose proof (i_pend _ _ HI t) as Hp. unfold pend_ok in Hp. rewrite Hpc in Hp. destruct Hp as [p0 [Hp1 [Hp2 Hp3]]].
  eexists. split.
  { unfold mon_step. rewrite Hp1, Hp2. pose proof (count_bound _ _ HI). rewrite (i_nsub _ _ HI).
    destruct (blen (entries s) + p_n p0 <=? blen (alloc s)) eqn:E; [reflexivity|lia]. }
  apply (inv_return s m t (entries s) (m_dead m) HI); try (rewrite Hpc; reflexivity).
  - apply incl_refl.
  - exact (i_ent_nd _ _ HI).
  - lia.
  - exact (i_dead_nd _ _ HI).
  - intros id n H. left. exact H.
Qed.

Lemma inv_unsub_hold : forall s m t id, Inv s m -> get_pc s t = UnsubHold id ->
  step_ok m (step_task s t).
Proof.
  intros s m t id HI Hpc. unfold step_ok, step_task. rewrite Hpc. cbn [acquired fst snd mon_run].
  pose proof (i_pend _ _ HI t) as Hp. unfold pend_ok in Hp. rewrite Hpc in Hp. destruct Hp as [p0 [Hp1 [Hp2 Hp3]]].
  set (f := fun e => negb (e_id e =? id)).
  set (es := filter f (entries s)).
  set (removed := negb (blen es =? blen (entries s))).
  (* [removed] says the filter dropped something, which can only be the entry of [id]; [p_n = 1]
     says the subscribe of [id] had returned when this call started *)
  assert (Hwhy : removed = true \/ p_n p0 = 1 -> is_returned m id = true \/ In id (ids_of (entries s))).
  { intros [Hr|Hn1]; [right|left; exact (Hp3 Hn1)].
    destruct (in_dec Z.eq_dec id (ids_of (entries s))) as [Hi|Hi]; [exact Hi|]. exfalso.
    assert (E : es = entries s).
    { apply filter_all. intros e He. unfold f. destruct (Z.eqb_spec (e_id e) id) as [E|_]; [|reflexivity].
      destruct Hi. apply in_ids_of. exists e. tauto. }
    unfold removed in Hr. rewrite E, Z.eqb_refl in Hr. discriminate. }
  assert (Hgone : ~ In id (ids_of es)).
  { apply filter_ids_notin. intros e He. unfold f. rewrite He, Z.eqb_refl. reflexivity. }
  unfold mon_step. rewrite Hp1, Hp2. fold es. fold removed.
  destruct (removed || (p_n p0 =? 1)) eqn:Em; eexists; (split; [reflexivity|]).
  all: apply (inv_return s m t es _ HI); try (rewrite Hpc; reflexivity);
    [apply incl_filter | apply (NoDup_map_filter e_id); exact (i_ent_nd _ _ HI) | | | ].
  - apply mark_dead_len.
  - apply mark_dead_nodup. exact (i_dead_nd _ _ HI).
  - intros id' n H. rewrite mark_dead_lookup in H. destruct (lookup (m_dead m) id') eqn:E; [left; exact H|].
    destruct (Z.eqb_spec id id') as [<-|_]; [|discriminate]. right. inversion H. split; [apply (i_pubs_len _ _ HI)|].
    split; [exact Hgone|]. apply Hwhy. destruct removed; [left; reflexivity|right; cbn in Em; lia].
  - lia.
  - exact (i_dead_nd _ _ HI).
  - intros id' n H. left. exact H.
Qed.

Lemma inv_pub_return : forall s m t es' p,
  Inv s m -> holding (get_pc s t) = true -> sub_of (get_pc s t) = None ->
  lookup (m_pend m) t = Some p -> (exists tp' d', p_op p = OPub tp' d') -> p_lin p = true ->
  (forall id, In id (p_ids p) -> is_returned m id = true /\ ~ In id (ids_of es')) ->
  incl es' (entries s) -> NoDup (ids_of es') ->
  step_ok m (release_to (set_entries s es') t Idle, [ERet t RPub]).
Proof.
  intros s m t es' p HI Hh Hns Hp1 [tp' [d' Hp2]] Hp3 Hids Hincl Hnd.
  eexists. split.
  { cbn [snd mon_run mon_step]. rewrite Hp1, Hp2, Hp3. reflexivity. }
  apply (inv_return s m t es' _ HI); try assumption.
  - apply mark_dead_all_len.
  - apply mark_dead_all_nodup. exact (i_dead_nd _ _ HI).
  - intros id n H. rewrite mark_dead_all_lookup in H.
    destruct (lookup (m_dead m) id) eqn:E; [left; exact H|].
    destruct (zmem id (p_ids p)) eqn:Ez; [|discriminate]. right. inversion H.
    apply zmem_In in Ez. destruct (Hids id Ez) as [Hr Hni]. split; [apply (i_pubs_len _ _ HI)|tauto].
Qed.

Lemma inv_fan_done : forall s m t tp d pr, Inv s m -> get_pc s t = PubFan tp d [] pr ->
  step_ok m (step_task s t).
Proof.
  intros s m t tp d pr HI Hpc. unfold step_task. rewrite Hpc. cbn [acquired].
  pose proof (i_pend _ _ HI t) as Hp. unfold pend_ok in Hp. rewrite Hpc in Hp.
  destruct Hp as [p [Hp1 [Hp2 [Hp3 Hp4]]]].
  (* nothing is left to fan out: each id to prune is gone from [entries] or noted in [pr] *)
  assert (Hp5 : forall id, In id (p_ids p) -> is_returned m id = true /\ (~ In id (ids_of (entries s)) \/ In id pr)).
  { intros id Hin. destruct (Hp4 id Hin) as [Hr [H|[H|[e [[] _]]]]]; tauto. }
  destruct pr as [|x pr].
  - apply (inv_pub_return s m t (entries s) p HI); try (rewrite Hpc; reflexivity); try assumption.
    + intros id Hin. destruct (Hp5 id Hin) as [Hr [H|[]]]. tauto.
    + apply incl_refl.
    + exact (i_ent_nd _ _ HI).
  - apply step_ok_same; [reflexivity|]. apply inv_mon_eta.
    apply (inv_ctl_step s m t _ None (entries s) (m_pend m) (m_dead m) HI);
      [right; right; rewrite Hpc; auto | rewrite Hpc; reflexivity | intros; discriminate | left; reflexivity
      | reflexivity | lia | exact (i_dead_nd _ _ HI) | | intros id' n H; left; exact H].
    unfold pend_ok. rewrite get_pc_set_pc, Z.eqb_refl. exists p. repeat (split; [assumption|]).
    intros id Hin. destruct (Hp5 id Hin) as [Hr H]. split; [exact Hr|tauto].
Qed.

Lemma inv_prune_hold : forall s m t pr, Inv s m -> get_pc s t = PruneHold pr ->
  step_ok m (step_task s t).
Proof.
  intros s m t pr HI Hpc. unfold step_task. rewrite Hpc. cbn [acquired].
  pose proof (i_pend _ _ HI t) as Hp. unfold pend_ok in Hp. rewrite Hpc in Hp.
  destruct Hp as [p [Hp1 [Hp2 [Hp3 Hp4]]]].
  set (f := fun e => negb (zmem (e_id e) pr)).
  apply (inv_pub_return s m t (filter f (entries s)) p HI); try (rewrite Hpc; reflexivity); try assumption.
  - intros id Hin. destruct (Hp4 id Hin) as [Hr [H|[H|[e [[] _]]]]]; split; try assumption.
    + intro H0. exact (H (incl_ids _ _ (incl_filter f _) _ H0)).
    + apply filter_ids_notin. intros e He. unfold f. subst id. apply zmem_In in H. rewrite H. reflexivity.
  - apply incl_filter.
  - apply (NoDup_map_filter e_id). exact (i_ent_nd _ _ HI).
Qed.

Lemma inv_fan_move : forall s m t tp d e rest pr pr',
  Inv s m -> get_pc s t = PubFan tp d (e :: rest) pr ->
  incl pr pr' ->
  (e_topic e = tp -> closed_in s (e_chan e) -> In (e_id e) pr') ->
  Inv (set_pc s t (PubFan tp d rest pr')) m.
Proof.
  intros s m t tp d e rest pr pr' HI Hpc Hinc Hcl. apply inv_mon_eta.
  apply (inv_ctl_step s m t _ (lock s) (entries s) (m_pend m) (m_dead m) HI);
    [left; rewrite Hpc; auto | rewrite Hpc; reflexivity | | left; reflexivity
    | reflexivity | lia | exact (i_dead_nd _ _ HI) | | intros id' n H; left; exact H].
  - intros tp' d' rest' pr1 H. inversion H; subst. exists e, pr. exact Hpc.
  - pose proof (i_pend _ _ HI t) as Hp. unfold pend_ok in *. rewrite get_pc_set_pc, Z.eqb_refl. rewrite Hpc in Hp.
    destruct Hp as [p [Hp1 [Hp2 [Hp3 Hp4]]]]. exists p. repeat (split; [assumption|]).
    intros id Hin. destruct (Hp4 id Hin) as [Hr [H|[H|[e0 [[<-|H1] [H2 [H3 H4]]]]]]]; split; try assumption.
    + left. exact H.
    + right. left. apply Hinc. exact H.
    + right. left. subst id. apply Hcl; assumption.
    + right. right. exists e0. tauto.
Qed.

Lemma inv_enqueue : forall s m t tp d rest pr e ch,
  Inv s m -> get_pc s t = PubFan tp d rest pr ->
  In e (entries s) -> e_topic e = tp -> ~ In (e_id e) (ids_of rest) ->
  lookup (chans s) (e_chan e) = Some ch -> c_closed ch = false ->
  (get_lastq s (e_id e) < npub s)%nat ->
  (forall c mg q, queued s c mg q -> m_id mg = e_id e -> (S q < npub s)%nat) ->
  Inv (set_chans s (update (chans s) (e_chan e)
        {| c_cap := c_cap ch;
           c_q := c_q ch ++ [({| m_id := e_id e; m_topic := tp; m_data := d |}, pred (npub s))];
           c_closed := false |})) m.
Proof.
  intros s m t tp d rest pr e ch HI Hpc Hin Htp Hnr Hch Hop Hlq Hold.
  destruct (i_fan _ _ HI _ _ _ _ _ Hpc) as [_ [_ [Hnp Hnth]]].
  apply inv_chan_update; [exact HI| | |intros [ch0 [H1 H2]]; congruence]; cbn [c_q].
  - intros mg q H. apply in_app_or in H. destruct H as [H|[H|[]]]; [left; exists ch; tauto|right].
    inversion H; subst mg q. unfold fresh_line. cbn [m_id m_topic m_data]. repeat split; try assumption; try lia.
    + replace (mk (e_id e) tp (e_chan e)) with e by (destruct e; cbn in *; subst; reflexivity).
      exact (i_ent_alloc _ _ HI _ Hin).
    + (* the mutex has one holder, so the only fan-out is [t]'s, and [e] is behind it *)
      intros t' tp' d' rest' pr' H' Hid.
      assert (t' = t) by (apply (only_holder _ _ t t' HI); [rewrite Hpc|rewrite H']; reflexivity).
      subst t'. rewrite Hpc in H'. inversion H'. subst. exact (Hnr Hid).
    + apply in_ids_of. exists e. tauto.
  - (* older lines of the same publication carry other ids: one with this id would have been seen *)
    apply qsorted_app; [exact (i_qsorted _ _ HI _ _ Hch)|].
    apply Forall_forall. intros [mg q] Hx.
    assert (Hqs : queued s (e_chan e) mg q) by (exists ch; tauto).
    destruct (i_q _ _ HI _ _ _ Hqs) as [Hlt _]. unfold qR. cbn.
    destruct (Nat.eq_dec q (pred (npub s))) as [->|Hne]; [|left; lia].
    right. split; [reflexivity|]. intro Hid. pose proof (Hold _ _ _ Hqs Hid). lia.
Qed.

Lemma inv_fan_step : forall s m t tp d e rest pr, Inv s m -> get_pc s t = PubFan tp d (e :: rest) pr ->
  step_ok m (step_task s t).
Proof.
  intros s m t tp d e rest pr HI Hpc. unfold step_task. rewrite Hpc. cbn [acquired].
  destruct (i_fan _ _ HI _ _ _ _ _ Hpc) as [Hnd [Hincl [Hnp Hnth]]].
  (* not sent (other topic, or full): [pr] as it is; closed (or no such channel): [e] is noted *)
  assert (Hskip : (e_topic e = tp -> ~ closed_in s (e_chan e)) -> Inv (set_pc s t (PubFan tp d rest pr)) m).
  { intro H. apply (inv_fan_move s m t tp d e rest pr pr HI Hpc); [apply incl_refl|]. intros H1 H2. destruct (H H1 H2). }
  assert (Hnote : Inv (set_pc s t (PubFan tp d rest (pr ++ [e_id e]))) m).
  { apply (inv_fan_move s m t tp d e rest pr _ HI Hpc); [apply incl_appl; apply incl_refl|].
    intros _ _. apply in_or_app. right. left. reflexivity. }
  destruct (Z.eqb_spec (e_topic e) tp) as [Htp|Htp];
    [|apply step_ok_same; [reflexivity|apply Hskip; intro H; destruct (Htp H)]].
  unfold try_send. destruct (lookup (chans s) (e_chan e)) as [ch|] eqn:Ech; [|apply step_ok_same; [reflexivity|exact Hnote]].
  destruct (c_closed ch) eqn:Ecl; [apply step_ok_same; [reflexivity|exact Hnote]|].
  assert (HI1 : Inv (set_pc s t (PubFan tp d rest pr)) m).
  { apply Hskip. intros _ [ch0 [H1 H2]]. congruence. }
  destruct (blen (c_q ch) <? c_cap ch); (apply step_ok_same; [reflexivity|]); [|exact HI1].
  destruct (i_fanq _ _ HI _ _ _ _ _ Hpc (e_id e) (or_introl eq_refl)) as [Hlq Hold].
  apply (inv_enqueue (set_pc s t (PubFan tp d rest pr)) m t tp d rest pr e ch HI1); try assumption.
  - rewrite get_pc_set_pc, Z.eqb_refl. reflexivity.
  - apply Hincl. left. reflexivity.
  - inversion Hnd. assumption.
Qed.

Lemma start_inv : forall s m t o, Inv s m -> step_ok m (start s t o).
Proof.
  intros s m t o HI.
  destruct (get_pc s t) eqn:Hpc;
    try (unfold start; rewrite Hpc; apply step_ok_same; [reflexivity|exact HI]).
  destruct o as [c cap|tp c|id|tp d| |c|c].
  - apply inv_start_chan; assumption.
  - apply inv_start_sub; assumption.
  - unfold start. rewrite Hpc. apply (inv_start_wait s m t (OUnsub id) _ HI Hpc eq_refl).
  - unfold start. rewrite Hpc. apply (inv_start_wait s m t (OPub tp d) _ HI Hpc eq_refl).
  - unfold start. rewrite Hpc. apply (inv_start_wait s m t OLen _ HI Hpc eq_refl).
  - apply inv_start_recv; assumption.
  - apply inv_start_close; assumption.
Qed.

Lemma step_task_inv : forall s m t, Inv s m ->
  step_ok m (step_task s t).
Proof.
  intros s m t HI.
  destruct (get_pc s t) as [ |id tp c|id tp c|id|id| | |tp d|tp d rest pr|pr|pr] eqn:Hpc.
  - rewrite (step_task_idle s t Hpc). apply step_ok_same; [reflexivity|exact HI].
  - apply (inv_acquire s m t HI); rewrite Hpc; [reflexivity|discriminate].
  - eapply inv_sub_hold; eassumption.
  - apply (inv_acquire s m t HI); rewrite Hpc; [reflexivity|discriminate].
  - eapply inv_unsub_hold; eassumption.
  - apply (inv_acquire s m t HI); rewrite Hpc; [reflexivity|discriminate].
  - eapply inv_len_hold; eassumption.
  - eapply inv_pub_acquire; eassumption.
  - destruct rest as [|e rest].
    + eapply inv_fan_done; eassumption.
    + eapply inv_fan_step; eassumption.
  - apply (inv_acquire s m t HI); rewrite Hpc; [reflexivity|discriminate].
  - eapply inv_prune_hold; eassumption.
Qed.

Lemma step_inv : forall s m e, Inv s m -> step_ok m (step s e).
Proof. intros s m [t o|t] HI; [apply start_inv|apply step_task_inv]; exact HI. Qed.

Lemma run_from_inv : forall sched s m, Inv s m -> step_ok m (run_from s sched).
Proof.
  induction sched as [|e r IH]; intros s m HI; cbn [run_from].
  - apply step_ok_same; [reflexivity|exact HI].
  - destruct (step_inv s m e HI) as [m1 [H1 H2]]. destruct (step s e) as [s1 o1]. cbn [fst snd] in *.
    destruct (IH s1 m1 H2) as [m2 [H3 H4]]. destruct (run_from s1 r) as [s2 o2]. cbn [fst snd] in *.
    exists m2. split; [|exact H4]. cbn [snd]. rewrite mon_run_app, H1. exact H3.
Qed.

(** C20: on every schedule the model's own trace satisfies every clause of the monitor. *)
Theorem run_ok : forall sched, ok_C20 (run sched) = true.
Proof.
  intro sched. unfold ok_C20, mon_code, run.
  destruct (run_from_inv sched init m_init inv_init) as [m' [H _]]. rewrite H. reflexivity.
Qed.

Theorem reachable_inv : forall sched, exists m,
  mon_run m_init (run sched) = MOk m /\ Inv (fst (run_from init sched)) m.
Proof. intro sched. exact (run_from_inv sched init m_init inv_init). Qed.

Definition reach (sched : list sev) : state := fst (run_from init sched).

Lemma reach_blocked_by_holder : forall sched t, blocked (reach sched) t = true ->
  exists h, h <> t /\ lock (reach sched) = Some h /\ holding (get_pc (reach sched) h) = true /\
            waiting (get_pc (reach sched) t) = true.
Proof.
  intros sched t Hb. destruct (reachable_inv sched) as [m [_ HI]]. fold (reach sched) in HI.
  unfold blocked in Hb. apply andb_prop in Hb. destruct Hb as [Hw Hl].
  destruct (lock (reach sched)) as [h|] eqn:E; [|discriminate]. exists h.
  assert (Hh : holding (get_pc (reach sched) h) = true) by (apply (i_lock _ _ HI); exact E).
  split; [|tauto]. intros ->. destruct (get_pc (reach sched) t); cbn in *; congruence.
Qed.

Lemma step_alloc : forall s e,
  (alloc (fst (step s e)) = alloc s /\ next_id (fst (step s e)) = next_id s) \/
  (exists tp c, alloc (fst (step s e)) = alloc s ++ [mk (next_id s) tp c] /\
                next_id (fst (step s e)) = next_id s + 1).
Proof.
  intros s [t o|t]; cbn [step]; [unfold start|unfold step_task];
    repeat match goal with |- context [match ?x with _ => _ end] => destruct x end; cbn; eauto.
Qed.

Lemma run_alloc_nonneg : forall sc s, (forall e, In e (alloc s) -> 0 <= e_id e) -> 0 <= next_id s ->
  forall e, In e (alloc (fst (run_from s sc))) -> 0 <= e_id e.
Proof.
  induction sc as [|ev r IH]; intros s Ha Hn; cbn [run_from]; [exact Ha|].
  pose proof (step_alloc s ev) as Hs. destruct (step s ev) as [s1 o1]. cbn [fst] in Hs.
  specialize (IH s1). destruct (run_from s1 r). cbn [fst] in *.
  destruct Hs as [[E1 E2]|[tp [c [E1 E2]]]]; apply IH; rewrite ?E1, ?E2; try lia; try assumption.
  intros e He. apply in_app_or in He. destruct He as [He|[<-|[]]]; [auto|cbn; lia].
Qed.

Lemma reach_unique_ids : forall sched,
  NoDup (ids_of (alloc (reach sched))) /\ NoDup (ids_of (entries (reach sched))) /\
  incl (entries (reach sched)) (alloc (reach sched)) /\
  (forall e, In e (alloc (reach sched)) -> 0 <= e_id e < next_id (reach sched)).
Proof.
  intro sched. destruct (reachable_inv sched) as [m [_ HI]]. fold (reach sched) in HI.
  split; [exact (i_alloc_nd _ _ HI)|]. split; [exact (i_ent_nd _ _ HI)|]. split; [exact (i_ent_alloc _ _ HI)|].
  intros e He. split; [|exact (i_alloc_lt _ _ HI e He)].
  apply (run_alloc_nonneg sched init); [intros e0 []|cbn; lia|exact He].
Qed.
