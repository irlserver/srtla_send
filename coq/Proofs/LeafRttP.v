(** LeafRttP.v — the f64 smoothing path behind the RTT estimate: hand-written model functions of
    Model/Rtt.v = the definitions tools/gen_leaf.py regenerates from crates/srtla-core/src/{kalman.rs, ewma.rs,
    connection/rtt.rs} on every run (coq/Gen/LeafRtt.v); fourth batch, DESIGN.md §12.8.  All for ALL inputs
    (every binary64 value, NaN and infinities included); [Print Assumptions] lists Coq's primitive float type
    and operations and nothing else. *)
From Coq Require Import Floats ZArith Bool.
From Srtla Require Import Base Constants FConstants LeafRtt.
From Srtla Require Rtt Select.
Local Open Scope Z_scope.

(** [KalmanFilter::update] with the configuration [KalmanConfig::for_rtt()] (the three anchored literals):
    whole-record equality; [p: [f64; 4]] is its four elements. *)
Lemma leaf_kalman_update_ok k m :
  Rtt.kalman_update k m =
  let '(x, v, p0, p1, p2, p3, i) :=
    leaf_kalman_update (Rtt.kx k) (Rtt.kv k) (Rtt.kp0 k) (Rtt.kp1 k) (Rtt.kp2 k) (Rtt.kp3 k)
                       KALMAN_Q_VALUE KALMAN_Q_VELOCITY KALMAN_R (Rtt.kinit k) m in
  {| Rtt.kx := x; Rtt.kv := v; Rtt.kp0 := p0; Rtt.kp1 := p1; Rtt.kp2 := p2; Rtt.kp3 := p3; Rtt.kinit := i |}.
Proof.
  destruct k as [x v p0 p1 p2 p3 i].
  unfold Rtt.kalman_update, leaf_kalman_update, Rtt.f_is_nan, Rtt.f_is_inf, Rtt.KALMAN_S_EPS, PrimFloat.is_finite;
    cbn [Rtt.kx Rtt.kv Rtt.kp0 Rtt.kp1 Rtt.kp2 Rtt.kp3 Rtt.kinit].
  (* the non-finite guard may be written as is_nan || is_infinite or as !is_finite: split both tests *)
  destruct (PrimFloat.is_nan m), (PrimFloat.is_infinity m); cbn [orb negb]; try reflexivity;
  destruct i; cbn [negb]; try reflexivity;
  cbv zeta; match goal with |- context [PrimFloat.ltb ?a ?b] => destruct (PrimFloat.ltb a b) end; reflexivity.
Qed.

Lemma leaf_kalman_reset_ok k :
  Rtt.kalman_new =
  let '(x, v, p0, p1, p2, p3, i) :=
    leaf_kalman_reset (Rtt.kx k) (Rtt.kv k) (Rtt.kp0 k) (Rtt.kp1 k) (Rtt.kp2 k) (Rtt.kp3 k) (Rtt.kinit k) in
  {| Rtt.kx := x; Rtt.kv := v; Rtt.kp0 := p0; Rtt.kp1 := p1; Rtt.kp2 := p2; Rtt.kp3 := p3; Rtt.kinit := i |}.
Proof. reflexivity. Qed.

Lemma leaf_ewma_update_ok alpha e m :
  Rtt.ewma_update alpha e m =
  let '(v, i) := leaf_ewma_update (Rtt.ev e) alpha (Rtt.einit e) m in {| Rtt.ev := v; Rtt.einit := i |}.
Proof.
  destruct e as [v i]. unfold Rtt.ewma_update, leaf_ewma_update, Rtt.f_is_nan, Rtt.f_is_inf, PrimFloat.is_finite; cbn [Rtt.ev Rtt.einit].
  destruct (PrimFloat.is_nan m), (PrimFloat.is_infinity m); cbn [orb negb]; try reflexivity;
  destruct i; reflexivity.
Qed.

Lemma leaf_ewma_reset_ok e :
  Rtt.ewma_new = let '(v, i) := leaf_ewma_reset (Rtt.ev e) (Rtt.einit e) in {| Rtt.ev := v; Rtt.einit := i |}.
Proof. reflexivity. Qed.

Lemma leaf_rtt_record_keepalive_sent_ok r now :
  let '(sent, waiting) := leaf_rtt_record_keepalive_sent (Rtt.r_ka_sent_ms r) (Rtt.r_waiting r) now in
  Rtt.r_ka_sent_ms (Rtt.record_keepalive_sent r now) = sent /\
  Rtt.r_waiting (Rtt.record_keepalive_sent r now) = waiting.
Proof. split; reflexivity. Qed.

(** The three read-only judgements have no hand-written counterpart (the classifier model takes
    [queue_building_suspected()] as an input): what the regenerated definitions guarantee for every input. *)
Lemma leaf_rtt_gradient_not_nan_nonneg fast slow :
  PrimFloat.is_nan (leaf_rtt_gradient_ms fast slow) = false /\
  PrimFloat.ltb (leaf_rtt_gradient_ms fast slow) 0 = false.
Proof.
  unfold leaf_rtt_gradient_ms, Select.f64_max.
  generalize (PrimFloat.sub fast slow); intro d.
  destruct (PrimFloat.is_nan d) eqn:Hn.
  - split; reflexivity.
  - change (PrimFloat.is_nan 0x0.0p+0) with false; cbv iota.
    destruct (PrimFloat.ltb d 0x0.0p+0) eqn:Hl.
    + split; reflexivity.
    + split; assumption.
Qed.

(** "Returns false until the baseline is established": *)
Lemma leaf_rtt_queue_building_needs_baseline mn fast slow masd init :
  leaf_rtt_queue_building_suspected mn fast slow masd init = true ->
  init = true /\ PrimFloat.is_finite mn = true.
Proof.
  unfold leaf_rtt_queue_building_suspected.
  destruct init; cbn [negb orb]; [|discriminate].
  destruct (PrimFloat.is_finite mn); cbn [negb]; [auto|discriminate].
Qed.
