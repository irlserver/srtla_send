(** C16P.v — the lemmas behind Props/C16.v, over the monitor and the well-formedness predicates
    of Run_C16.v: what holds of every reachable controller ([link_inv], distinct keys, the keys
    the monitor expects), the one-step clauses on a lowered and on a raised target, the
    simulation between a link's state and what the monitor remembers of it ([SimR], lifted to
    the controller by [MapRel]), and the invariant of the loss latch. *)
From Coq Require Import Floats ZifyBool.
From Srtla Require Import Base Constants LinkCc LinkCcP Run_C16.
From Srtla Require FConstants.
Local Open Scope Z_scope.

Lemma nodupZ_NoDup l : nodupZ l = true <-> NoDup l.
Proof.
  induction l as [|x l IH]; cbn.
  - split; [constructor|reflexivity].
  - rewrite andb_true_iff, negb_true_iff, memZ_false, IH. split.
    + intros [H1 H2]. constructor; assumption.
    + intro H. inversion H; subst. split; assumption.
Qed.

Lemma ctrl_all_from (P : link -> Prop) :
  P link_default -> (forall s now i, P s -> P (link_step s now i)) ->
  forall ops c, ctrl_all P c -> ctrl_all P (ctrl_from c ops).
Proof.
  intros Hd Hs. induction ops as [|[now inps] t IH]; intros c Hc; cbn; [exact Hc|].
  apply IH. apply ctrl_all_tick_all with (Q := fun _ => True); auto.
Qed.

Lemma ctrl_all_after (P : link -> Prop) ops :
  P link_default -> (forall s now i, P s -> P (link_step s now i)) -> ctrl_all P (ctrl_after ops).
Proof. intros Hd Hs. apply ctrl_all_from; auto. intros k s []. Qed.

Lemma link_inv_after ops : ctrl_all link_inv (ctrl_after ops).
Proof. apply ctrl_all_after; [apply link_inv_default|intros; apply link_inv_step; assumption]. Qed.

Lemma NoDup_keys_from ops : forall c, NoDup (map fst c) -> NoDup (map fst (ctrl_from c ops)).
Proof.
  induction ops as [|[now inps] t IH]; intros c H; cbn; [exact H|].
  apply IH, NoDup_keys_tick_all, H.
Qed.

Lemma keys_ok_tick_all c now inps :
  NoDup (map fst c) -> keys_ok (map fst (tick_all c now inps)) (map i_id inps) = true.
Proof.
  intro H. unfold keys_ok. rewrite !andb_true_iff, !forallb_forall. repeat split.
  - intros k Hk. apply memZ_In. apply keys_tick_all in Hk. exact Hk.
  - intros k Hk. apply memZ_In. apply keys_tick_all. exact Hk.
  - apply nodupZ_NoDup, NoDup_keys_tick_all, H.
Qed.

Lemma pre_tick_rtt_no_sample s now i :
  rtt_sample_present (i_rtt i) = false -> pre_tick_rtt s now i = k_rtt s.
Proof.
  unfold rtt_sample_present, pre_tick_rtt, record_rtt. intro H.
  destruct (f_lt fzero (i_rtt i)); [|reflexivity].
  cbn [andb] in H. rewrite H. reflexivity.
Qed.

(** this is what the well-formedness premise [rtt_stays_valid] is for *)
Lemma stays_out_of_bootstrap s now i :
  rtt_stays_valid s now i = true -> c_state (k_core s) <> Bootstrap ->
  c_state (k_core (link_step s now i)) <> Bootstrap.
Proof.
  unfold rtt_stays_valid. intros Hv Hn.
  destruct (link_step_shape s now i) as [(Ei & _)|(_ & ns & md & fr & Hns & Ec)]; [|rewrite Ec; exact Hns].
  rewrite Ei in Hv. destruct (c_state (k_core s)); [contradiction|..]; discriminate Hv.
Qed.

Lemma floor_until_rtt_step s now i :
  r_ewma (k_rtt s) = fzero -> rtt_sample_present (i_rtt i) = false ->
  let s' := link_step s now i in
  r_ewma (k_rtt s') = fzero /\ c_state (k_core s') = Bootstrap /\ c_target (k_core s') = MIN_TARGET_BPS.
Proof.
  intros H0 Hp. cbv zeta. rewrite link_step_rtt.
  destruct (link_step_shape s now i) as [(_ & Ec)|(Ei & _)];
    rewrite pre_tick_rtt_no_sample in * by exact Hp.
  - rewrite Ec. split; [exact H0|split; reflexivity].
  - rewrite (rtt_invalid_zero _ H0) in Ei. discriminate.
Qed.

Lemma lowered_only_by s now i :
  core_inv (k_core s) ->
  let s' := link_step s now i in
  let t := c_target (k_core s) in let t' := c_target (k_core s') in let obs := observed_bps i in
  t' < t ->
  (c_state (k_core s') = BackingOff /\ t * BACKOFF_PERMILLE / 1000 <= t' /\ Z.min obs t <= t' /\
     t' <= Z.max MIN_TARGET_BPS (Z.max (t * BACKOFF_PERMILLE / 1000) (Z.min obs t))) \/
  (c_state (k_core s') = Drain /\ c_state (k_core s) <> Drain /\
     t' = Z.max MIN_TARGET_BPS (t * DRAIN_PERMILLE / 1000)) \/
  (c_state (k_core s') = Bootstrap /\ c_state (k_core s) <> Bootstrap /\
     rtt_invalid (pre_tick_rtt s now i) = true).
Proof.
  intros Hinv. cbv zeta. intro Hlt. pose proof Hinv as (Hrange & _).
  destruct (c_seeded (k_core s)) eqn:Hsd.
  - pose proof (link_step_target_spec s now i Hsd Hrange) as H. cbv zeta in H.
    destruct (c_state (k_core (link_step s now i)));
      [right; right|lia|lia|left|right; left]; (split; [reflexivity|]); destruct H as [H1 H2].
    + split; [apply (seeded_iff _ Hinv), Hsd|exact H2].
    + rewrite H2. lia.
    + destruct (cc_state_eqb (c_state (k_core s)) Drain) eqn:E; [lia|].
      split; [intro Hd; rewrite Hd in E; discriminate|exact H2].
  - (* an unseeded link is at the floor, below which no step goes *)
    exfalso. rewrite (bootstrap_floor _ Hinv (unseeded_bootstrap _ Hinv Hsd)) in Hlt.
    destruct (core_inv_step s now i Hinv) as (Hrange' & _). lia.
Qed.

Lemma growth_bound s now i :
  core_inv (k_core s) -> c_seeded (k_core s) = true ->
  let s' := link_step s now i in
  let t := c_target (k_core s) in let t' := c_target (k_core s') in
  t' * 1000 <= t * (1000 + HAI_STEP_PERMILLE) /\ (t < t' -> t' <= 2 * observed_bps i).
Proof.
  intros (Hrange & _) Hsd. cbv zeta.
  pose proof (link_step_target_spec s now i Hsd Hrange) as H. cbv zeta in H.
  assert (Ht0 : 0 <= c_target (k_core s)) by (unfold MIN_TARGET_BPS in Hrange; lia).
  pose proof (Z.mul_le_mono_nonneg_l _ _ _ Ht0
                (proj2 (step_permille_range (c_mode (k_core (link_step s now i)))))).
  destruct (c_state (k_core (link_step s now i))); unfold MIN_TARGET_BPS, HAI_STEP_PERMILLE in *; lia.
Qed.

Definition latch_rel (l : latch) (since : option Z) : Prop :=
  match since with
  | None => l_high_since l = 0 /\ f_lt FConstants.LOSS_DEGRADE_ENTER (l_ewma l) = false
  | Some t => f_lt FConstants.LOSS_DEGRADE_ENTER (l_ewma l) = true /\ 0 <= t <= l_high_since l
  end.

Record SimR (s : link) (m : mon) : Prop := mkR {
  R_inv : core_inv (k_core s);
  R_bad : m_bad m = 0%N;
  R_tgt : m_tgt m = c_target (k_core s);
  R_st : m_st m = state_code (c_state (k_core s));
  R_seeded : m_seeded m = c_seeded (k_core s);
  R_deg : m_deg m = l_degraded (k_latch s);
  R_rtt : m_rtt_seen m = false -> r_ewma (k_rtt s) = fzero;
  R_latch : latch_rel (k_latch s) (m_since m) }.

Lemma R_default : SimR link_default mon_default.
Proof.
  constructor; try reflexivity.
  - apply core_inv_default.
  - cbn. split; reflexivity.
Qed.

Lemma seeded_code c : core_inv c -> c_seeded c = negb (state_code (c_state c) =? 0).
Proof.
  intros (_ & Hb & Hn & _).
  destruct (c_state c); [apply Hb; reflexivity|..]; apply Hn; discriminate.
Qed.

Lemma first_code_all l : Forall (fun p : bool * N => fst p = true) l -> first_code l = 0%N.
Proof. induction 1 as [|[b c] l Hb _ IH]; cbn in *; [reflexivity|rewrite Hb; exact IH]. Qed.

(** latch clauses and the latch part of [SimR]; a tick either leaves the latch alone (it stayed
    in Bootstrap) or updates the loss average *)
Lemma latch_step l since now l' :
  0 <= now -> latch_rel l since -> (l' = l \/ exists e, l' = update_loss_ewma l e now) ->
  let high := f_lt FConstants.LOSS_DEGRADE_ENTER (l_ewma l') in
  latch_rel l' (if high then (match since with Some t => Some t | None => Some now end) else None) /\
  (negb (l_degraded l') || l_degraded l ||
     (high && match since with Some t => 4000 <=? now - t | None => false end) = true) /\
  (l_degraded l' || negb (l_degraded l) || f_lt (l_ewma l') FConstants.LOSS_DEGRADE_CLEAR = true).
Proof.
  intros Hnow Hrel [->|[e ->]]; cbv zeta.
  - split; [|split; destruct (l_degraded l); reflexivity].
    destruct since as [t|]; destruct Hrel as [H1 H2]; [rewrite H1|rewrite H2]; split; assumption.
  - unfold latch_rel in *.
    rewrite update_loss_ewma_ewma, update_loss_ewma_degraded, update_loss_ewma_since.
    unfold ssub, LOSS_DEGRADE_SUSTAIN_MS.
    destruct (f_lt FConstants.LOSS_DEGRADE_ENTER e); [|destruct since; lia].
    destruct (l_high_since l =? 0) eqn:E0; destruct since as [t|]; lia.
Qed.

(** the arithmetic clauses of the monitor are the boolean form of [lowered_only_by] and
    [growth_bound] *)
Lemma step_R s m now i :
  SimR s m -> 0 <= now -> rtt_stays_valid s now i = true ->
  SimR (link_step s now i) (mon_step m now i (lobs_of (link_step s now i))).
Proof.
  intros [Hinv Hbad Htgt Hst Hseed Hdeg Hrtt Hlatch] Hnow Hvalid.
  pose proof (core_inv_step s now i Hinv) as Hinv'.
  assert (Hstay : c_seeded (k_core s) = true -> c_seeded (k_core (link_step s now i)) = true).
  { intro Hsd. apply (seeded_iff _ Hinv'), stays_out_of_bootstrap, (seeded_iff _ Hinv), Hsd. exact Hvalid. }
  (* no RTT sample so far: still unset, and at the floor *)
  assert (Hrtt' : m_rtt_seen m || rtt_sample_present (i_rtt i) = false ->
                  r_ewma (k_rtt (link_step s now i)) = fzero /\
                  c_target (k_core (link_step s now i)) = MIN_TARGET_BPS).
  { intro H. apply orb_false_iff in H. destruct H as [H1 H2].
    destruct (floor_until_rtt_step s now i (Hrtt H1) H2) as (A & _ & B). split; assumption. }
  destruct (latch_step (k_latch s) (m_since m) now (k_latch (link_step s now i)) Hnow Hlatch)
    as (HL1 & HL2 & HL3).
  { rewrite link_step_latch. destruct (rtt_invalid _); [left; reflexivity|right; eexists; reflexivity]. }
  cbv zeta in HL1, HL2, HL3.
  unfold mon_step. rewrite Hbad. cbn [N.eqb].
  unfold mon_clauses, c_range, c_floor, c_rtt, c_lowered, c_growth, c_latch_on, c_latch_off,
         next_since, mon_high.
  cbn [lobs_of o_tgt o_st o_lewma o_deg snapshot_of s_target s_state s_loss_ewma s_degraded].
  rewrite Htgt, Hst, Hseed, Hdeg, <- (seeded_code _ Hinv').
  constructor; cbn [m_bad m_tgt m_st m_seeded m_deg m_rtt_seen m_since]; try reflexivity.
  - exact Hinv'.
  - apply first_code_all. repeat constructor; cbn [fst].
    + destruct Hinv' as (Hr & _). clear - Hr. lia.
    + destruct (m_rtt_seen m || rtt_sample_present (i_rtt i)); [reflexivity|].
      rewrite (proj2 (Hrtt' eq_refl)). apply Z.eqb_refl.
    + destruct (c_seeded (k_core s)); [rewrite Hstay|]; reflexivity.
    + destruct (Z_lt_dec (c_target (k_core (link_step s now i))) (c_target (k_core s))) as [Hlt|Hge];
        [|clear - Hge; lia].
      destruct (lowered_only_by s now i Hinv Hlt) as [(-> & B1 & B2 & B3)|[(-> & Hnd & B1)|(Hb & Hnb & _)]];
        cbn [state_code].
      * unfold BACKOFF_PERMILLE in B1, B3. clear - B1 B2 B3. lia.
      * assert (Hd : (state_code (c_state (k_core s)) =? 4) = false)
          by (destruct (c_state (k_core s)); cbn; congruence).
        rewrite Hd. unfold DRAIN_PERMILLE in B1. clear - B1. lia.
      * contradiction (stays_out_of_bootstrap s now i Hvalid Hnb Hb).
    + destruct (c_seeded (k_core s)) eqn:Hsd; [|clear; lia].
      destruct (growth_bound s now i Hinv Hsd) as [G1 G2]. cbv zeta in G1, G2. unfold HAI_STEP_PERMILLE in G1.
      clear - G1 G2. lia.
    + exact HL2.
    + exact HL3.
  - destruct (c_seeded (k_core s)); [rewrite Hstay|]; reflexivity.
  - intro H. apply Hrtt', H.
  - exact HL1.
Qed.

Definition MapRel (c : ctrl) (mc : mctrl) : Prop :=
  Forall2 (fun x y => fst x = fst y /\ SimR (snd x) (snd y)) c mc.

Lemma MapRel_getd c mc k : MapRel c mc -> SimR (getd link_default c k) (getd mon_default mc k).
Proof.
  unfold getd. induction 1 as [|[k1 s1] [k2 m2] c mc [E HR] _ IH]; cbn; [apply R_default|].
  cbn in E, HR. subst k2. destruct (k =? k1); [exact HR|exact IH].
Qed.

Lemma MapRel_upsert c mc k s m : MapRel c mc -> SimR s m -> MapRel (upsert c k s) (upsert mc k m).
Proof.
  intros H HR. induction H as [|[k1 s1] [k2 m2] c mc [E HR1] Hrest IH]; cbn.
  - constructor; [split; [reflexivity|exact HR]|constructor].
  - cbn in E, HR1. subst k2. destruct (k =? k1).
    + constructor; [split; [reflexivity|exact HR]|exact Hrest].
    + constructor; [split; [reflexivity|exact HR1]|exact IH].
Qed.

Lemma MapRel_retain c mc ids : MapRel c mc -> MapRel (retain c ids) (retain mc ids).
Proof.
  unfold retain. induction 1 as [|[k1 s1] [k2 m2] c mc [E HR1] _ IH]; cbn; [constructor|].
  cbn in E, HR1. subst k2. destruct (memZ k1 ids); [constructor; [split; [reflexivity|exact HR1]|exact IH]|exact IH].
Qed.

Lemma MapRel_bad c mc : MapRel c mc -> first_bad_mon mc = 0%N.
Proof.
  induction 1 as [|[k1 s1] [k2 m2] c mc [E HR1] _ IH]; cbn; [reflexivity|].
  cbn in HR1. rewrite (R_bad _ _ HR1). cbn. exact IH.
Qed.

Lemma combine_map_r {A B} (f : A -> B) (l : list A) : combine l (map f l) = map (fun x => (x, f x)) l.
Proof. induction l; cbn; [reflexivity|f_equal; assumption]. Qed.

Lemma MapRel_links now inps : forall c mc,
  0 <= now -> NoDup (map i_id inps) -> MapRel c mc ->
  (forall i, In i inps -> rtt_stays_valid (getd link_default c (i_id i)) now i = true) ->
  MapRel (tick_links c now inps)
         (mon_links mc now (map (fun i => (i, lobs_of (link_step (getd link_default c (i_id i)) now i))) inps)).
Proof.
  induction inps as [|j t IH]; intros c mc Hnow Hnd Hrel Hv; cbn; [exact Hrel|].
  cbn in Hnd. inversion Hnd as [|? ? Hj Hnd']; subst.
  set (sj := link_step (getd link_default c (i_id j)) now j).
  assert (Hext : map (fun i => (i, lobs_of (link_step (getd link_default c (i_id i)) now i))) t =
                 map (fun i => (i, lobs_of (link_step (getd link_default (upsert c (i_id j) sj) (i_id i)) now i))) t).
  { apply map_ext_in. intros i Hi. rewrite getd_upsert_other; [reflexivity|].
    intro E. apply Hj. rewrite <- E. apply in_map. exact Hi. }
  rewrite Hext. apply IH; [exact Hnow|exact Hnd'| |].
  - apply MapRel_upsert; [exact Hrel|]. apply step_R; [apply MapRel_getd; exact Hrel|exact Hnow|].
    apply Hv. left. reflexivity.
  - intros i Hi. rewrite getd_upsert_other.
    + apply Hv. right. exact Hi.
    + intro E. apply Hj. rewrite <- E. apply in_map. exact Hi.
Qed.

Lemma mon_tick_ok c mc now inps :
  MapRel c mc -> NoDup (map fst c) -> tick_wf c now inps = true ->
  let c' := tick_all c now inps in
  exists mc', mon_tick (mc, 0%N) now inps (tobs_of c' inps) = (mc', 0%N) /\ MapRel c' mc'.
Proof.
  intros Hrel Hndc Hwf. cbv zeta.
  unfold tick_wf in Hwf. rewrite !andb_true_iff in Hwf. destruct Hwf as [[[Hn0 _] Hnd] Hall].
  apply nodupZ_NoDup in Hnd. rewrite forallb_forall in Hall.
  assert (Hnow : 0 <= now) by lia.
  unfold mon_tick. cbn [t_links t_keys tobs_of].
  rewrite map_length, Nat.eqb_refl. cbn [negb].
  rewrite keys_ok_tick_all by exact Hndc. cbn [negb].
  assert (Hl : map (fun i => lobs_of (getd link_default (tick_all c now inps) (i_id i))) inps =
               map (fun i => lobs_of (link_step (getd link_default c (i_id i)) now i)) inps).
  { apply map_ext_in. intros i Hi. rewrite tick_all_getd_in by assumption. reflexivity. }
  assert (Hm : MapRel (tick_all c now inps)
     (retain (mon_links mc now (combine inps (map (fun i => lobs_of (getd link_default (tick_all c now inps) (i_id i))) inps)))
             (map i_id inps))).
  { rewrite Hl, combine_map_r. unfold tick_all. apply MapRel_retain.
    apply MapRel_links; try assumption.
    intros i Hi. specialize (Hall i Hi). apply andb_true_iff in Hall. apply Hall. }
  eexists. split; [|exact Hm].
  cbn [N.eqb]. rewrite (MapRel_bad _ _ Hm). reflexivity.
Qed.

Lemma mon_run_ok ops : forall c mc,
  MapRel c mc -> NoDup (map fst c) -> wf_from c ops = true ->
  snd (mon_run (mc, 0%N) (run_from c ops)) = 0%N.
Proof.
  induction ops as [|[now inps] t IH]; intros c mc Hrel Hnd Hwf; [reflexivity|].
  cbn [run_from mon_run]. cbv zeta.
  cbn [wf_from] in Hwf. apply andb_true_iff in Hwf. destruct Hwf as [Hw1 Hw2].
  destruct (mon_tick_ok c mc now inps Hrel Hnd Hw1) as (mc' & E & Hrel').
  cbv zeta in E. rewrite E. apply IH; [exact Hrel'|apply NoDup_keys_tick_all; exact Hnd|exact Hw2].
Qed.

Definition latch_inv (l : latch) : Prop :=
  l_high_since l <> 0 -> f_lt FConstants.LOSS_DEGRADE_ENTER (l_ewma l) = true.

Lemma latch_inv_update l e now : latch_inv (update_loss_ewma l e now).
Proof.
  unfold latch_inv. rewrite update_loss_ewma_ewma, update_loss_ewma_since.
  destruct (f_lt _ e); [reflexivity|contradiction].
Qed.

Lemma latch_inv_step s now i : latch_inv (k_latch s) -> latch_inv (k_latch (link_step s now i)).
Proof.
  intro H. rewrite link_step_latch. destruct (rtt_invalid _); [exact H|apply latch_inv_update].
Qed.

Definition full_inv (s : link) : Prop := link_inv s /\ latch_inv (k_latch s).

Lemma full_inv_after ops : ctrl_all full_inv (ctrl_after ops).
Proof.
  apply ctrl_all_after.
  - split; [apply link_inv_default|]. intro H. cbn in H. contradiction.
  - intros s now i [H1 H2]. split; [apply link_inv_step, H1|apply latch_inv_step, H2].
Qed.
