(** Whatever the scheduler, the score hysteresis or the best-path override
    chooses is an eligible uplink: not registering, not timed out, not stall-gated. *)
From Coq Require Import Floats.
From Srtla Require Import Base Constants Stall StallSel StallP Route Run_C04 BaseP.
From Coq Require Import ZifyBool.
Local Open Scope Z_scope.

Lemma eligible_not_skipped now l : eligible now l = negb (skipped now l).
Proof. unfold eligible, skipped. destruct (schedulable l), (timed_out l now), (g_gated (lg l)); reflexivity. Qed.

Lemma nthZ_Some ls k l : nthZ ls k = Some l <-> 0 <= k /\ nth_error ls (Z.to_nat k) = Some l.
Proof. unfold nthZ. destruct (Z.ltb_spec k 0); [split; [discriminate | intros [? _]; lia] | tauto]. Qed.

Lemma nthZ_Some_range ls k l : nthZ ls k = Some l -> 0 <= k < blen ls.
Proof.
  intros H. apply nthZ_Some in H as [Hk H].
  assert (Z.to_nat k < length ls)%nat by (apply nth_error_Some; congruence). unfold blen. lia.
Qed.

(** the link at index [k] of a list whose head has index [i] satisfies [P] *)
Definition at_idx (ls : list link) (i k : Z) (P : link -> Prop) : Prop :=
  i <= k /\ exists l, nth_error ls (Z.to_nat (k - i)) = Some l /\ P l.

Lemma at_idx_tail l t i k (P : link -> Prop) : at_idx t (i + 1) k P -> at_idx (l :: t) i k P.
Proof.
  intros (H1 & x & Hn & HP). split; [lia|]. exists x. split; [|exact HP].
  replace (Z.to_nat (k - i)) with (S (Z.to_nat (k - (i + 1)))) by lia. exact Hn.
Qed.
Lemma at_idx_head l t i (P : link -> Prop) : P l -> at_idx (l :: t) i i P.
Proof. intros HP. split; [lia|]. exists l. rewrite Z.sub_diag. split; [reflexivity|exact HP]. Qed.

Lemma at_idx_or_tail {X : Prop} {l t i k} {P : link -> Prop} :
  X \/ at_idx t (i + 1) k P -> X \/ at_idx (l :: t) i k P.
Proof. intros [H|H]; [left; exact H | right; apply at_idx_tail; exact H]. Qed.

Lemma at_idx_nthZ {ls k} {P : link -> Prop} : at_idx ls 0 k P -> exists l, nthZ ls k = Some l /\ P l.
Proof.
  intros (H0 & l & Hn & Hl). exists l. split; [|exact Hl].
  rewrite Z.sub_0_r in Hn. apply nthZ_Some. exact (conj H0 Hn).
Qed.

Lemma classic_go_elig now : forall ls i best bs k,
  classic_go now ls i best bs = Some k ->
  best = Some k \/ at_idx ls i k (fun l => skipped now l = false).
Proof.
  induction ls as [|l t IH]; intros i best bs k H; cbn [classic_go] in H; [left; exact H|].
  destruct (skipped now l) eqn:Es; [exact (at_idx_or_tail (IH _ _ _ _ H))|].
  destruct (bs <? get_score l); [|exact (at_idx_or_tail (IH _ _ _ _ H))].
  right. destruct (IH _ _ _ _ H) as [E|E]; [|apply at_idx_tail; exact E].
  injection E as <-. apply at_idx_head. exact Es.
Qed.

(** the best index, and [last] once it has been scored, are links the loop did not skip *)
Lemma enh_go_elig now quality any last : forall ls ins i acc ls' acc' k,
  enh_go now quality any last ls ins i acc = (ls', acc') ->
  (e_best acc' = Some k -> e_best acc = Some k \/ at_idx ls i k (fun l => skipped now l = false)) /\
  (last = Some k -> e_cur acc' = e_cur acc \/ at_idx ls i k (fun l => skipped now l = false)).
Proof.
  induction ls as [|l t IH]; intros ins i acc ls' acc' k H; cbn [enh_go] in H.
  - inversion H; subst. split; auto.
  - destruct (skipped now l || (any && si_capx (hd selin0 ins))) eqn:Es.
    + destruct (enh_go now quality any last t (tl ins) (i + 1) acc) as [t' a'] eqn:Er. inversion H; subst.
      destruct (IH _ _ _ _ _ k Er) as (HB & HC). split; intros E; apply at_idx_or_tail; auto.
    + apply orb_false_iff in Es as [Es _].
      cbn zeta in H.
      match type of H with context [enh_go now quality any last t (tl ins) (i + 1) ?a1] =>
        destruct (enh_go now quality any last t (tl ins) (i + 1) a1) as [t' a'] eqn:Er; set (acc1 := a1) in * end.
      inversion H; subst. destruct (IH _ _ _ _ _ k Er) as (HB & HC). split; intros E.
      * apply HB in E as [E|E]; [|right; apply at_idx_tail; exact E].
        unfold acc1 in E. destruct (_ <? _)%float; cbn [e_best] in E; [|left; exact E].
        injection E as <-. right. apply at_idx_head. exact Es.
      * apply HC in E as E'. destruct E' as [E'|E']; [|right; apply at_idx_tail; exact E'].
        rewrite E'. unfold acc1. rewrite E. cbn [opt_eqb].
        destruct (Z.eqb_spec i k) as [->|]; [right; apply at_idx_head; exact Es|].
        left. destruct (_ <? _)%float; reflexivity.
Qed.

Lemma at_idx_post now ls ls' i k : Forall2 cache_only ls ls' ->
  at_idx ls i k (fun l => skipped now l = false) -> at_idx ls' i k (fun l => skipped now l = false).
Proof.
  intros HF (Hi & l & Hn & Hs). split; [exact Hi|].
  destruct (Forall2_nth_error_l _ _ _ HF _ _ Hn) as (y & Hy & Hxy).
  exists y. split; [exact Hy|]. rewrite (cache_only_skipped now l y Hxy). exact Hs.
Qed.

Lemma enhanced_elig now quality last ls ins ls' k :
  enhanced_select now quality last ls ins = (ls', Some k) ->
  at_idx ls' 0 k (fun l => skipped now l = false).
Proof.
  unfold enhanced_select.
  pose proof (enh_go_cache_only now quality (any_unconstrained now ls ins) last ls ins 0 (mkE None (-1)%float None)) as HF.
  destruct (enh_go now quality (any_unconstrained now ls ins) last ls ins 0 (mkE None (-1)%float None)) as [l1 acc] eqn:Er.
  destruct (enh_go_elig _ _ _ _ _ _ _ _ _ _ k Er) as (HB & HC).
  cbn [fst e_best e_cur] in *. intros [= <- Hres].
  apply (at_idx_post now ls l1); [exact HF|].
  assert (Hbest : e_best acc = Some k -> at_idx ls 0 k (fun l => skipped now l = false)).
  { intros E. destruct (HB E) as [|Hk]; [discriminate | exact Hk]. }
  destruct last as [la_|]; [|exact (Hbest Hres)].
  destruct (opt_eqb Z.eqb (e_best acc) (Some la_)); [exact (Hbest Hres)|].
  destruct (e_cur acc) as [cur|] eqn:Ec; [|exact (Hbest Hres)].
  destruct (_ <? _)%float; [|exact (Hbest Hres)].
  destruct (HC Hres) as [|Hk]; [discriminate | exact Hk].
Qed.

Lemma select_elig cfg last now ins ls ls' k :
  select cfg last now ins ls = (ls', Some k) ->
  exists l, nthZ ls' k = Some l /\ eligible now l = true.
Proof.
  intros H.
  assert (E : at_idx ls' 0 k (fun l => skipped now l = false)).
  { unfold select in H. destruct (cf_classic cfg).
    - injection H as <- H. apply classic_go_elig in H as [E|E]; [discriminate | exact E].
    - exact (enhanced_elig _ _ _ _ _ _ _ H). }
  destruct (at_idx_nthZ E) as (l & Hn & Hs). exists l. split; [exact Hn|].
  rewrite eligible_not_skipped, Hs. reflexivity.
Qed.

Lemma bq_go_elig flt now : forall ls i best bq k,
  bq_go flt now ls i best bq = Some k ->
  best = Some k \/ at_idx ls i k (fun l => bq_skip flt now l = false).
Proof.
  induction ls as [|l t IH]; intros i best bq k H; cbn [bq_go] in H; [left; exact H|].
  destruct (bq_skip flt now l) eqn:Es; [exact (at_idx_or_tail (IH _ _ _ _ H))|].
  destruct (_ <? _)%float; [|exact (at_idx_or_tail (IH _ _ _ _ H))].
  right. destruct (IH _ _ _ _ H) as [E|E]; [|apply at_idx_tail; exact E].
  injection E as <-. apply at_idx_head. exact Es.
Qed.

Lemma bq_skip_elig now l : bq_skip true now l = false -> eligible now l = true.
Proof.
  unfold bq_skip, eligible. cbn [andb]. intros H.
  apply orb_false_iff in H as [H H3]. apply orb_false_iff in H as [H1 H2]. apply orb_false_iff in H3 as [H3 H4].
  rewrite H3, H4. destruct (schedulable l); [reflexivity|discriminate].
Qed.

Theorem route_eligible_or_unskipped flt cfg last now ins critical p ls ls' k :
  route flt cfg last now ins critical p ls = (ls', Some k) ->
  exists l, nthZ ls' k = Some l /\ (eligible now l = true \/ bq_skip flt now l = false).
Proof.
  unfold route. destruct (select cfg last now ins ls) as [ls1 sel] eqn:Es.
  intros [= <- Hr].
  assert (Hsel : sel = Some k ->
                 exists l, nthZ ls1 k = Some l /\ (eligible now l = true \/ bq_skip flt now l = false)).
  { intros ->. destruct (select_elig _ _ _ _ _ _ _ Es) as (l & Hn & He). eauto. }
  destruct (negb (cf_classic cfg) && p_data p && (critical || p_retr p)); [|apply Hsel; exact Hr].
  destruct (best_quality flt now ls1) as [b|] eqn:Eb; [|apply Hsel; exact Hr].
  destruct (opt_eqb Z.eqb sel (Some b)); [apply Hsel; exact Hr|].
  inversion Hr; subst. unfold best_quality in Eb. apply bq_go_elig in Eb as [E|E]; [discriminate|].
  destruct (at_idx_nthZ E) as (l & Hn & Hb). eauto.
Qed.

Theorem route_elig cfg last now ins critical p ls ls' k :
  route true cfg last now ins critical p ls = (ls', Some k) ->
  exists l, nthZ ls' k = Some l /\ eligible now l = true.
Proof.
  intros H. apply route_eligible_or_unskipped in H as (l & Hn & [He|Hb]);
    exists l; split; auto using bq_skip_elig.
Qed.

(** the override only changes the index: the links leave [route] as they leave the decision *)
Lemma route_decided flt cfg last now ins critical p ls :
  Forall2 (decided now cfg) ls (fst (route flt cfg last now ins critical p ls)).
Proof.
  unfold route. pose proof (select_decided cfg last now ins ls) as Hd.
  destruct (select cfg last now ins ls) as [ls1 sel]. exact Hd.
Qed.

Lemma forward_length k d : forall ls i, length (forward k d ls i) = length ls.
Proof. induction ls; intros i; cbn; [reflexivity|]. rewrite IHls. reflexivity. Qed.

Lemma probe_link_view l : g_gated (lg (probe_link l)) = g_gated (lg l) /\ a_conn (la (probe_link l)) = a_conn (la l) /\
  (queued_of l < queued_of (probe_link l) -> g_gated (lg l) && a_conn (la l) = true).
Proof.
  unfold probe_link. destruct (g_gated (lg l) && a_conn (la l)) eqn:E.
  - destruct (STALL_PROBE_ONE_IN_N <=? g_probe (lg l) + 1); cbn; repeat split; auto.
  - repeat split; auto. unfold queued_of. lia.
Qed.

Lemma others_ok_forward now cfg k d : forall pre l1 i,
  Forall2 (decided now cfg) pre l1 ->
  others_ok (Some k) d pre (forward k d l1 i) i = true.
Proof.
  intros pre l1 i H. revert i.
  induction H as [|a b pre l1 D H IH]; intros i; cbn [forward others_ok]; [reflexivity|].
  rewrite IH, andb_true_r. cbn [opt_eqb]. rewrite (Z.eqb_sym k i).
  destruct (i =? k); [reflexivity|].
  destruct d.
  - destruct (probe_link_view b) as (Eg & Ec & Hq). unfold queued_of in *.
    destruct (x_queued (lx a) <? x_queued (lx (probe_link b))) eqn:Eq; [|reflexivity].
    rewrite Eg, Ec. cbn [andb]. rewrite andb_true_r. apply Hq. rewrite (decided_aux D). clear - Eq. lia.
  - unfold queued_of. rewrite (decided_aux D), Z.ltb_irrefl. reflexivity.
Qed.

Lemma others_ok_none now cfg d : forall pre l1 i,
  Forall2 (decided now cfg) pre l1 -> others_ok None d pre l1 i = true.
Proof.
  intros pre l1 i H. revert i.
  induction H as [|a b pre l1 D H IH]; intros i; cbn [others_ok]; [reflexivity|].
  rewrite IH, andb_true_r. cbn [opt_eqb]. unfold queued_of. rewrite (decided_aux D), Z.ltb_irrefl. reflexivity.
Qed.

Lemma forward_nth k d : forall ls i l, nth_error ls (Z.to_nat (k - i)) = Some l -> i <= k ->
  nth_error (forward k d ls i) (Z.to_nat (k - i)) = Some (bump_queue l).
Proof.
  induction ls as [|x t IH]; intros i l Hn Hi; [destruct (Z.to_nat (k - i)); discriminate|].
  cbn [forward]. destruct (Z.to_nat (k - i)) as [|n] eqn:En.
  - cbn in *. inversion Hn; subst. replace (i =? k) with true by lia. reflexivity.
  - cbn in *. replace n with (Z.to_nat (k - (i + 1))) by lia. apply IH; [|lia].
    replace (Z.to_nat (k - (i + 1))) with n by lia. exact Hn.
Qed.

Lemma forward_nthZ k d ls l : nthZ ls k = Some l -> nthZ (forward k d ls 0) k = Some (bump_queue l).
Proof.
  rewrite !nthZ_Some. intros [Hk Hn]. split; [exact Hk|].
  pose proof (forward_nth k d ls 0 l) as Hf. rewrite Z.sub_0_r in Hf. exact (Hf Hn Hk).
Qed.

Lemma route_timeout_refreshed cfg last now ins critical p ls ls' s k l :
  route true cfg last now ins critical p ls = (ls', s) -> nthZ ls' k = Some l ->
  c_ctimeout (lc l) = cf_ctimeout cfg.
Proof.
  intros H Hn. pose proof (route_decided true cfg last now ins critical p ls) as Hd. rewrite H in Hd.
  apply nthZ_Some in Hn as [_ Hn].
  destruct (Forall2_nth_error_r _ _ _ Hd _ _ Hn) as (a & _ & D). exact (decided_timeout D).
Qed.

Lemma eligible_cfg_of_eligible cfg now l :
  eligible now l = true -> c_ctimeout (lc l) = cf_ctimeout cfg -> eligible_cfg cfg now l = true.
Proof.
  intros He Ec. unfold eligible_cfg. rewrite He. cbn [andb].
  unfold eligible in He. apply andb_true_iff in He as [He _]. apply andb_true_iff in He as [_ Ht].
  unfold timed_out in Ht. rewrite Ec in Ht. exact Ht.
Qed.

Definition model_case (cfg : config) (last : option Z) (now : Z) (ins : list selin) (critical : bool) (p : pkt)
                      (ls : list link) : dcase :=
  mkCase cfg last now ins critical p ls
         (fst (handle true cfg last now ins critical p ls)) (snd (handle true cfg last now ins critical p ls)).

Theorem handle_monitor cfg last now ins critical p ls : mon_C04 (model_case cfg last now ins critical p ls) = 0%N.
Proof.
  unfold mon_C04, model_case. cbn [r_pre r_post r_routed r_now r_pkt r_cfg].
  unfold handle. pose proof (route_decided true cfg last now ins critical p ls) as Hd.
  destruct (route true cfg last now ins critical p ls) as [ls1 s] eqn:Er. cbn [fst] in Hd.
  pose proof (Forall2_length Hd) as Hlen.
  destruct s as [k|].
  - destruct (route_elig _ _ _ _ _ _ _ _ _ Er) as (l & Hn & He).
    pose proof (route_timeout_refreshed _ _ _ _ _ _ _ _ _ _ _ Er Hn) as Hc.
    (* the routed index is that of a link: the bounds guard of [handle] never fails *)
    pose proof (nthZ_Some_range _ _ _ Hn) as Hk.
    replace ((0 <=? k) && (k <? blen ls1)) with true by lia. cbn [fst snd].
    rewrite forward_length, Hlen, Nat.eqb_refl. cbn [negb].
    rewrite (forward_nthZ k (p_data p) ls1 l Hn).
    (* [bump_queue] writes [x_queued] only *)
    change (eligible_cfg cfg now (bump_queue l)) with (eligible_cfg cfg now l).
    rewrite (eligible_cfg_of_eligible cfg now l He Hc). cbn [negb].
    rewrite (others_ok_forward now cfg) by exact Hd. reflexivity.
  - cbn [fst snd]. rewrite Hlen, Nat.eqb_refl. cbn [negb]. rewrite (others_ok_none now cfg) by exact Hd. reflexivity.
Qed.

(** fault histories: the abstract queue model never transmits on a link that is down *)
Definition finv (s : list flink) : Prop := Forall (fun l => fst l = false -> snd l = 0) s.

(** an assumption on the histories, not a consequence of C04_route_eligible: the scheduler's choice
    is a connected link.  [eligible] does not imply [a_conn]: a link that is down but heard from
    within the timeout (or in its start-up grace), past Registering and not gated, is eligible. *)
Definition fop_wf (s : list flink) (o : fop) : Prop :=
  match o with
  | FClient (Some k) _ => exists l, nth_error s k = Some l /\ fst l = true
  | _ => True
  end.

Lemma fupd_Forall (P : flink -> Prop) f : (forall l, P l -> P (f l)) -> forall s i, Forall P s -> Forall P (fupd i f s).
Proof.
  intros Hf. induction s as [|x t IH]; intros i H; cbn [fupd]; [constructor|].
  inversion H; subst. destruct i; constructor; auto.
Qed.

Lemma fupd_Forall_at (P : flink -> Prop) f : forall s i l, nth_error s i = Some l -> P (f l) ->
  Forall P s -> Forall P (fupd i f s).
Proof.
  induction s as [|x t IH]; intros i l Hn Hp H; cbn [fupd]; [constructor|].
  inversion H; subst. destruct i; cbn in Hn.
  - inversion Hn; subst. constructor; assumption.
  - constructor; [assumption|]. eapply IH; eassumption.
Qed.

Lemma fupd_emptied f s i : (forall l, snd (f l) = 0) ->
  Forall (fun l => fst l = false -> snd l = 0) s -> Forall (fun l => fst l = false -> snd l = 0) (fupd i f s).
Proof. intros Hf. apply fupd_Forall. intros l _ _. apply Hf. Qed.

Lemma fstep_inv s o : finv s -> fop_wf s o -> finv (fst (fstep_model s o)).
Proof.
  unfold finv. intros H Hw. destruct o as [[k|] fl| |i|i|i|]; cbn [fstep_model fst]; try exact H.
  - destruct Hw as (l & Hn & Hc).
    assert (H1 : Forall (fun l => fst l = false -> snd l = 0) (fupd k (fun l => (fst l, snd l + 1)) s)).
    { eapply fupd_Forall_at; [exact Hn| |exact H]. cbn. intros E. congruence. }
    destruct fl; cbn [fst]; [|exact H1].
    apply fupd_emptied; [reflexivity | exact H1].
  - induction H; cbn; constructor; auto.
  - apply fupd_emptied; [reflexivity | exact H].
  - apply fupd_emptied; [reflexivity | exact H].
  - apply fupd_emptied; [reflexivity | exact H].
Qed.

Lemma map_const_zero_quiet {A} (pre : list bool) (s : list A) : tx_while_down pre (map (fun _ => 0) s) = false.
Proof.
  revert pre. induction s as [|x t IH]; intros [|c pre]; cbn; try reflexivity.
  rewrite IH. destruct c; reflexivity.
Qed.

(** a threshold flush transmits on the chosen link [k] only: quiet if that link is up *)
Lemma flush_one_quiet k : forall (s : list flink) (pre : list bool) j,
  (forall i c, nth_error pre i = Some c -> (j + i)%nat = k -> c = true) ->
  tx_while_down pre (map (fun p => if Nat.eqb (fst p) k then snd (snd p) else 0)
                         (combine (seq j (length s)) s)) = false.
Proof.
  induction s as [|x t IH]; intros pre j Hp; destruct pre as [|c pre]; cbn; try reflexivity.
  rewrite (IH pre (S j)).
  - destruct (Nat.eqb j k) eqn:E.
    + apply Nat.eqb_eq in E. rewrite (Hp 0%nat c eq_refl) by lia. reflexivity.
    + cbn. rewrite andb_false_r. reflexivity.
  - intros i c0 Hi Hj. apply (Hp (S i) c0 Hi). lia.
Qed.

Lemma fstep_quiet s o : finv s -> fop_wf s o -> tx_while_down (map fst s) (snd (fstep_model s o)) = false.
Proof.
  intros H Hw. destruct o as [[k|] fl| |i|i|i|]; cbn [fstep_model snd]; try apply map_const_zero_quiet.
  - destruct fl; cbn [snd]; [|apply map_const_zero_quiet].
    destruct Hw as (l & Hn & Hc).
    apply flush_one_quiet. intros i c Hi Hj. cbn in Hj. subst i.
    rewrite nth_error_map in Hi. unfold flink in *. rewrite Hn in Hi. cbn in Hi. inversion Hi; subst. exact Hc.
  - (* flush tick: every link sends its queue; a link that is down has an empty one *)
    clear Hw. unfold finv in H. induction H as [|x t Hx Ht IH]; cbn; [reflexivity|].
    rewrite IH. destruct (fst x) eqn:E; cbn; [reflexivity|]. rewrite (Hx eq_refl). reflexivity.
Qed.

Fixpoint fops_wf (s : list flink) (ops : list fop) : Prop :=
  match ops with
  | [] => True
  | o :: t => fop_wf s o /\ fops_wf (fst (fstep_model s o)) t
  end.

Theorem fault_model_monitor s ops : finv s -> fops_wf s ops -> mon_fault (ftrace s ops) = 0%N.
Proof.
  revert s. induction ops as [|o t IH]; intros s H Hw; cbn [ftrace]; [reflexivity|].
  destruct Hw as [Hw Ht].
  pose proof (fstep_quiet s o H Hw) as Hq. pose proof (fstep_inv s o H Hw) as Hi.
  destruct (fstep_model s o) as [s' tx]. cbn [fst snd] in *. cbn [mon_fault fs_pre_conn fs_tx].
  rewrite Hq. apply IH; assumption.
Qed.
