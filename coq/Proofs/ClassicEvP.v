(** ClassicEvP.v — an SRTLA-ACK event and a NAK event of the model
    (Conn.srtla_ack_event / Conn.attribute_nak, classic = true) against the reference. *)
From Coq Require Import Permutation.
From Srtla Require Import Base BaseP Constants Conn ConnP Classic ClassicRef ClassicP ClassicInvP.

Definition has_lr (c : link) : bool := match last_recv c with Some _ => true | None => false end.

Definition arel (c : link) (a : alink) : Prop :=
  a_conn a = connected c /\ a_recv a = has_lr c /\ a_win a = window c /\
  Permutation (a_keys a) (map fst (log c)).

Lemma perm_filter {A} (f : A -> bool) l l' : Permutation l l' -> Permutation (filter f l) (filter f l').
Proof.
  induction 1; cbn.
  - constructor.
  - destruct (f x); [constructor|]; assumption.
  - destruct (f x), (f y); try constructor; try apply Permutation_refl.
  - eapply Permutation_trans; eassumption.
Qed.

Lemma holds_mem c a seq : arel c a -> holds seq a = log_mem seq (log c).
Proof.
  intros (_ & _ & _ & Hp). apply eq_true_iff_eq. unfold holds. rewrite log_mem_In, existsb_exists. split.
  - intros (k & Hk & E). apply Z.eqb_eq in E. subst k. eapply Permutation_in; eassumption.
  - intros H. exists seq. split; [|apply Z.eqb_refl]. eapply Permutation_in; [apply Permutation_sym|]; eassumption.
Qed.

Lemma arel_earn c a seq now :
  inv_link c -> arel c a -> log_mem seq (log c) = true ->
  arel (fst (handle_srtla_ack_specific c seq true now)) (earn seq a).
Proof.
  intros (H1 & H2 & H3) (A1 & A2 & A3 & A4) Hm. rewrite specific_fst, Hm.
  assert (Hp : Permutation (filter (fun k => negb (k =? seq)) (a_keys a)) (map fst (log_remove seq (log c)))).
  { rewrite log_remove_keys. apply perm_filter. exact A4. }
  unfold arel, earn, a_conn, a_recv, a_win, a_keys, has_lr in *. cbn [fst snd connected last_recv window log].
  repeat split; try assumption.
  rewrite ack_window by (try exact H3; apply blen_nonneg).
  rewrite A3. f_equal. unfold blen. f_equal.
  apply Permutation_length in Hp. rewrite map_length in Hp. exact Hp.
Qed.

Lemma arel_global c a : arel c a -> arel (handle_srtla_ack_global c) (ref_global a).
Proof.
  intros (A1 & A2 & A3 & A4). destruct (global_fields c) as (G1 & G2 & G3 & _).
  unfold arel, ref_global, a_conn, a_recv, a_win, a_keys, has_lr in *. cbn [fst snd].
  rewrite G1, G2, G3, global_window, A1, A2, A3. repeat split; try reflexivity. exact A4.
Qed.

Lemma Forall2_upd_map_at {A B} (R : A -> B -> Prop) (f : A -> A) (g : B -> B) : forall l l' i,
  Forall2 R l l' ->
  (forall x y, nth_error l i = Some x -> R x y -> R (f x) (g y)) ->
  Forall2 R (upd i f l) (map_at i g l').
Proof.
  induction l as [|x l IH]; intros l' i H Hf; inversion H; subst; cbn; [destruct i; constructor|].
  destruct i as [|i]; cbn.
  - constructor; [apply Hf; [reflexivity|assumption]|assumption].
  - constructor; [assumption|]. apply IH; [assumption|]. intros x0 y0 Hn. apply Hf. exact Hn.
Qed.

Lemma Forall2_map2 {A B} (R : A -> B -> Prop) (f : A -> A) (g : B -> B) l l' :
  Forall2 R l l' -> (forall x y, R x y -> R (f x) (g y)) -> Forall2 R (map f l) (map g l').
Proof. induction 1; cbn; intros Hf; constructor; auto. Qed.

Lemma first_hit_earn_first seq idx now : forall cs als i,
  Forall2 arel cs als -> Forall inv_link cs ->
  Forall2 arel (fst (first_hit (fun x => handle_srtla_ack_specific x seq true now) (Some idx) i cs))
               (earn_first seq idx i als).
Proof.
  induction cs as [|c cs IH]; intros als i H Hinv; inversion H as [|? a ? als' Hca Hrest]; subst; cbn [first_hit earn_first].
  - constructor.
  - inversion Hinv as [|? ? Hc Hcs]; subst.
    rewrite (Nat.eqb_sym i idx).
    destruct (Nat.eqb idx i) eqn:Ei; cbn [negb andb].
    + specialize (IH als' (S i) Hrest Hcs).
      destruct (first_hit _ (Some idx) (S i) cs) as [t' r]. cbn in *. constructor; assumption.
    + rewrite (holds_mem c a seq Hca), (surjective_pairing (handle_srtla_ack_specific c seq true now)), specific_found.
      destruct (log_mem seq (log c)) eqn:Em.
      * cbn. constructor; [|assumption]. exact (arel_earn c a seq now Hc Hca Em).
      * specialize (IH als' (S i) Hrest Hcs).
        destruct (first_hit _ (Some idx) (S i) cs) as [t' r]. cbn in *. constructor; assumption.
Qed.

Theorem srtla_ack_event_ref cs als idx seq now :
  Forall2 arel cs als -> Forall inv_link cs ->
  Forall2 arel (srtla_ack_event cs idx seq true now) (ref_srtla_ack_one idx als seq).
Proof.
  intros H Hinv. unfold srtla_ack_event, ref_srtla_ack_one.
  destruct (nth_error cs idx) as [c|] eqn:Ec.
  2:{ replace (nth_error als idx) with (@None alink); [exact H|]. symmetry.
      apply nth_error_None. rewrite <- (Forall2_length H). apply nth_error_None. exact Ec. }
  destruct (Forall2_nth_error_l _ _ _ H _ _ Ec) as (a & Ea & Hn). rewrite Ea.
  rewrite (holds_mem c a seq Hn), (surjective_pairing (handle_srtla_ack_specific c seq true now)), specific_found.
  apply Forall2_map2; [|intros x y; apply arel_global].
  destruct (log_mem seq (log c)) eqn:Em.
  - apply Forall2_upd_map_at; [exact H|].
    intros x y Hx Hxy. rewrite Ec in Hx. inversion Hx; subst x.
    apply arel_earn; [|exact Hxy|exact Em].
    eapply Forall_forall; [exact Hinv|]. eapply nth_error_In. exact Ec.
  - apply first_hit_earn_first; assumption.
Qed.

Lemma srtla_ack_event_inv cs idx seq now :
  Forall inv_link cs -> Forall inv_link (srtla_ack_event cs idx seq true now).
Proof.
  intros H. destruct (nth_error cs idx) as [c|] eqn:Ec; [|unfold srtla_ack_event; rewrite Ec; exact H].
  destruct (srtla_ack_event_cases cs idx seq true now c Ec) as (l1 & -> & Hl1).
  apply Forall_map. apply Forall_impl with (P := inv_link); [exact inv_global|].
  destruct Hl1 as [[-> _]|(k & c0 & _ & _ & -> & _)]; [exact H|]. apply Forall_upd; [exact H|].
  intros x. apply inv_specific.
Qed.

Theorem srtla_ack_fold_ref idx now : forall seqs cs als,
  Forall2 arel cs als -> Forall inv_link cs ->
  Forall2 arel (fold_left (fun cs sq => srtla_ack_event cs idx sq true now) seqs cs) (ref_srtla_ack idx als seqs) /\
  Forall inv_link (fold_left (fun cs sq => srtla_ack_event cs idx sq true now) seqs cs).
Proof.
  unfold ref_srtla_ack. induction seqs as [|sq seqs IH]; intros cs als H Hinv; cbn [fold_left]; [split; assumption|].
  apply IH; [apply srtla_ack_event_ref; assumption|apply srtla_ack_event_inv; assumption].
Qed.

(** NAK events: -100 (floored) per log entry a NAK retired *)
Definition nrel (c c' : link) : Prop :=
  (length (log c') <= length (log c))%nat /\
  window c' = ref_naks (length (log c) - length (log c')) (window c).

Lemma ref_naks_add a b w : ref_naks (a + b) w = ref_naks b (ref_naks a w).
Proof. revert w. induction a as [|a IH]; intros w; cbn; [reflexivity|]. apply IH. Qed.

Lemma nrel_refl c : nrel c c.
Proof. split; [lia|]. rewrite Nat.sub_diag. reflexivity. Qed.

Lemma nrel_trans c1 c2 c3 : nrel c1 c2 -> nrel c2 c3 -> nrel c1 c3.
Proof.
  intros [L1 W1] [L2 W2]. split; [lia|].
  rewrite W2, W1, <- ref_naks_add. f_equal. lia.
Qed.

Lemma nrel_nak c seq now : inv_link c -> nrel c (fst (handle_nak c seq now)).
Proof.
  intros (H1 & H2 & H3). rewrite nak_fst. destruct (log_mem seq (log c)) eqn:Em; [|apply nrel_refl].
  pose proof (log_remove_len seq (log c) H2 Em) as Hl. unfold blen in Hl.
  split; cbn [log window]; [lia|].
  replace (length (log c) - length (log_remove seq (log c)))%nat with 1%nat by lia.
  cbn [ref_naks]. apply nak_ref.
Qed.

Lemma attribute_nak_step cs t seq now :
  Forall inv_link cs ->
  Forall2 nrel cs (fst (attribute_nak cs t seq now)) /\ Forall inv_link (fst (attribute_nak cs t seq now)).
Proof.
  intros H. destruct (attribute_nak_cases cs t seq now) as [->|(k & c & _ & _ & -> & _)].
  { split; [apply Forall2_reflexive, nrel_refl|exact H]. }
  split; [|apply Forall_upd; [exact H|intros x; apply inv_nak]].
  apply Forall2_upd; [exact nrel_refl|]. intros x Hx. apply nrel_nak.
  eapply Forall_forall; [exact H|]. eapply nth_error_In. exact Hx.
Qed.

Theorem nak_fold_ref t now : forall seqs cs,
  Forall inv_link cs ->
  Forall2 nrel cs (fold_left (fun cs sq => fst (attribute_nak cs t sq now)) seqs cs) /\
  Forall inv_link (fold_left (fun cs sq => fst (attribute_nak cs t sq now)) seqs cs).
Proof.
  induction seqs as [|sq seqs IH]; intros cs H; cbn [fold_left].
  - split; [apply Forall2_reflexive; apply nrel_refl|exact H].
  - destruct (attribute_nak_step cs t sq now H) as [Hr Hi].
    destruct (IH _ Hi) as [Hr2 Hi2]. split; [|exact Hi2].
    eapply Forall2_trans; [exact nrel_trans|exact Hr|exact Hr2].
Qed.
