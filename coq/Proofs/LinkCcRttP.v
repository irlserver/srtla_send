(** LinkCcRttP.v — the smoothed RTT of the link-CC model stays finite and non-zero once a link has
    left Bootstrap ([Run_C16.wf]), derived from a premise on the inputs alone ([Run_C16.wf_inputs]:
    every reported RTT is no sample or lies in [2^-200, 2^200] ms): the age-bucketed EWMA
    [(rtt * 1 + prev * w) / (1 + w)], w in {1, 4, 8, 16}, of two binary64 numbers in that interval
    is again in it.  [fval], the relational form of FloatP's [ffin] and [FR], and [prim_const] are
    set up here and used by LinkCcFP.v as well. *)
From Srtla Require Import FloatP Base LinkCc LinkCcP Run_C16 C16P.
From Coq Require Import Reals Lia Lra Floats.
From Flocq Require Import Core.Core IEEE754.BinarySingleNaN.
From Flocq Require IEEE754.PrimFloat.
Module FP := Flocq.IEEE754.PrimFloat.
#[local] Existing Instance FP.Hprec.
#[local] Existing Instance FP.Hmax.

Section Real.
Local Open Scope R_scope.

Notation fexp64 := (SpecFloat.fexp FloatOps.prec FloatOps.emax).
Notation gfmt := (generic_format radix2 fexp64).

Lemma gen_scaled (m e : Z) : (Z.abs m < 2 ^ 53)%Z -> (-1074 <= e)%Z -> gfmt (IZR m * bpow radix2 e).
Proof.
  intros Hm He.
  apply (generic_format_FLT radix2 (-1074) 53).
  apply (FLT_spec radix2 (-1074) 53 _ (Float radix2 m e)); [reflexivity|exact Hm|exact He].
Qed.

Definition fval (x : PrimFloat.float) (r : R) : Prop := ffin x /\ FR x = r.

Lemma FR_Prim2SF x : FR x = SF2R radix2 (Prim2SF x).
Proof. unfold FR, FP.Prim2B. apply B2R_SF2B. Qed.
Lemma ffin_Prim2SF x : ffin x <-> is_finite_SF (Prim2SF x) = true.
Proof. unfold ffin, FP.Prim2B. now rewrite is_finite_SF2B. Qed.

Lemma mul_val x y rx ry : fval x rx -> fval y ry ->
  Rabs (rnd (rx * ry)) < bpow radix2 emax -> fval (x * y)%float (rnd (rx * ry)).
Proof. intros [Fx <-] [Fy <-]. now apply mul_fin_intro. Qed.

Lemma sub_val x y rx ry : fval x rx -> fval y ry ->
  Rabs (rnd (rx - ry)) < bpow radix2 emax -> fval (x - y)%float (rnd (rx - ry)).
Proof. intros [Fx <-] [Fy <-]. now apply sub_fin_intro. Qed.

Lemma add_val x y rx ry : fval x rx -> fval y ry ->
  Rabs (rnd (rx + ry)) < bpow radix2 emax -> fval (x + y)%float (rnd (rx + ry)).
Proof.
  intros [Fx Ex] [Fy Ey] H. unfold fval, ffin, FR in *. rewrite FP.add_equiv.
  pose proof (Bplus_correct prec emax FP.Hprec FP.Hmax mode_NE (FP.Prim2B x) (FP.Prim2B y) Fx Fy) as C.
  rewrite Ex, Ey, Rlt_bool_true in C by exact H. destruct C as (C1 & C2 & _). split; assumption.
Qed.

Lemma div_val x y rx ry : fval x rx -> fval y ry -> ry <> 0 ->
  Rabs (rnd (rx / ry)) < bpow radix2 emax -> fval (x / y)%float (rnd (rx / ry)).
Proof.
  intros [Fx Ex] [Fy Ey] Hy H. unfold fval, ffin, FR in *. rewrite FP.div_equiv.
  assert (Hy' : B2R (FP.Prim2B y) <> 0) by (rewrite Ey; exact Hy).
  pose proof (Bdiv_correct prec emax FP.Hprec FP.Hmax mode_NE (FP.Prim2B x) (FP.Prim2B y) Hy') as C.
  rewrite Ex, Ey, Rlt_bool_true in C by exact H. destruct C as (C1 & C2 & _). split; [rewrite C2; exact Fx|exact C1].
Qed.

(** the ends of the interval of RTTs (ms) that [Run_C16.wf_inputs] admits *)
Definition LO : R := bpow radix2 (-200).
Definition HI : R := bpow radix2 200.

Lemma LO_pos : 0 < LO. Proof. apply bpow_gt_0. Qed.

(** [scaled x k]: [x] is finite with value in [LO * k, HI * k], [k] an integer scale.  For k up to
    32 both ends are binary64 numbers far below the overflow threshold, so rounding a real in the
    interval stays in it and does not overflow ([rnd_scaled]). *)
Definition scaled (x : PrimFloat.float) (k : Z) : Prop :=
  exists r, fval x r /\ LO * IZR k <= r <= HI * IZR k.

Lemma rnd_scaled z k : (1 <= k <= 32)%Z -> LO * IZR k <= z <= HI * IZR k ->
  LO * IZR k <= rnd z <= HI * IZR k /\ Rabs (rnd z) < bpow radix2 emax.
Proof.
  intros Hk [H1 H2].
  assert (Pl : 0 < LO * IZR k) by (apply Rmult_lt_0_compat; [apply bpow_gt_0|apply IZR_lt; lia]).
  assert (Hov : HI * IZR k < bpow radix2 emax).
  { apply Rle_lt_trans with (bpow radix2 (200 + 5)); [|apply bpow_lt; reflexivity].
    rewrite bpow_plus. apply Rmult_le_compat_l; [apply bpow_ge_0|].
    change (bpow radix2 5) with 32. apply IZR_le. lia. }
  assert (Hr : LO * IZR k <= rnd z <= HI * IZR k).
  { split; [apply round_ge_generic|apply round_le_generic];
      try apply (fexp_correct prec emax FP.Hprec); try apply valid_rnd_N; try assumption;
      rewrite Rmult_comm; apply gen_scaled; lia. }
  split; [exact Hr|]. rewrite Rabs_pos_eq; lra.
Qed.

Lemma mul_scaled x y k : scaled x 1 -> fval y (IZR k) -> (1 <= k <= 32)%Z -> scaled (x * y)%float k.
Proof.
  intros (r & Hx & Bx) Hy Hk. assert (1 <= IZR k) by (apply IZR_le; lia).
  destruct (rnd_scaled (r * IZR k) k Hk) as [Hr Hno].
  { split; apply Rmult_le_compat_r; lra. }
  exists (rnd (r * IZR k)). split; [apply mul_val; assumption|exact Hr].
Qed.

Lemma add_scaled x y j k :
  scaled x j -> scaled y k -> (1 <= j)%Z -> (1 <= k)%Z -> (j + k <= 32)%Z -> scaled (x + y)%float (j + k).
Proof.
  intros (rx & Hx & Bx) (ry & Hy & By) Hj Hk Hjk.
  destruct (rnd_scaled (rx + ry) (j + k)) as [Hr Hno]; [lia|rewrite plus_IZR; lra|].
  exists (rnd (rx + ry)). split; [apply add_val; assumption|exact Hr].
Qed.

Lemma div_scaled x y k : scaled x k -> fval y (IZR k) -> (1 <= k <= 32)%Z -> scaled (x / y)%float 1.
Proof.
  intros (r & Hx & Bx) Hy Hk. assert (Pk : 0 < IZR k) by (apply IZR_lt; lia).
  destruct (rnd_scaled (r / IZR k) 1) as [Hr Hno]; [lia| |].
  { replace (LO * 1) with (LO * IZR k / IZR k) by (field; lra).
    replace (HI * 1) with (HI * IZR k / IZR k) by (field; lra).
    unfold Rdiv. split; apply Rmult_le_compat_r; try lra; apply Rlt_le, Rinv_0_lt_compat, Pk. }
  exists (rnd (r / IZR k)). split; [apply div_val; try assumption; lra|exact Hr].
Qed.

Definition in_range (x : PrimFloat.float) : Prop := scaled x 1.

End Real.

(** proves [fval c r] for a float literal [c]: [Prim2SF c] is evaluated (only that subterm, so
    that no real-number expression is touched) and [r] is compared with the resulting dyadic *)
Ltac prim_const :=
  split;
  [ apply ffin_Prim2SF; vm_compute; reflexivity
  | rewrite FR_Prim2SF;
    match goal with |- context [Prim2SF ?c] =>
      let sf := fresh "sf" in set (sf := Prim2SF c); vm_compute in sf; subst sf end;
    unfold SF2R, F2R, LO, HI; simpl; lra ].

Section Prim.
Local Open Scope R_scope.

Lemma c_zero : fval 0%float 0. Proof. prim_const. Qed.
Lemma c_one : fval 1%float 1. Proof. prim_const. Qed.
(** an age weight of the EWMA: a small integer, and so is one plus it *)
Definition weight (w : PrimFloat.float) : Prop :=
  exists W, (1 <= W <= 16)%Z /\ fval w (IZR W) /\ fval (1 + w)%float (IZR (1 + W)).

Lemma weight_1 : weight 1%float. Proof. exists 1%Z. split; [lia|split; prim_const]. Qed.
Lemma weight_4 : weight 4%float. Proof. exists 4%Z. split; [lia|split; prim_const]. Qed.
Lemma weight_8 : weight 8%float. Proof. exists 8%Z. split; [lia|split; prim_const]. Qed.
Lemma weight_16 : weight 16%float. Proof. exists 16%Z. split; [lia|split; prim_const]. Qed.
Lemma c_lo : fval 0x1p-200%float LO. Proof. prim_const. Qed.
Lemma c_hi : fval 0x1p+200%float HI. Proof. prim_const. Qed.

Lemma mix_in_range (rtt prev w : PrimFloat.float) :
  weight w -> in_range rtt -> in_range prev -> in_range ((rtt * 1 + prev * w) / (1 + w))%float.
Proof.
  intros (W & HW & Hw & Hd) Hr Hp. apply (div_scaled _ _ (1 + W)); [|exact Hd|lia].
  apply add_scaled; try lia.
  - apply mul_scaled; [exact Hr|exact c_one|lia].
  - apply mul_scaled; [exact Hp|exact Hw|lia].
Qed.

Lemma range_b_in_range x :
  (f_is_finite x && f_le 0x1p-200%float x && f_le x 0x1p+200%float)%bool = true -> in_range x.
Proof.
  intro H. apply andb_true_iff in H. destruct H as [H H3]. apply andb_true_iff in H. destruct H as [H1 H2].
  apply ffin_b in H1. destruct c_lo as [Flo Elo]. destruct c_hi as [Fhi Ehi].
  apply (fle_R _ _ Flo H1) in H2. apply (fle_R _ _ H1 Fhi) in H3. rewrite Elo in H2. rewrite Ehi in H3.
  exists (FR x). split; [now split|lra].
Qed.

(** a number in range is finite and not zero: the Bootstrap test of [tick] fails on it *)
Lemma in_range_valid x : in_range x -> f_is_finite x = true /\ f_eq x fzero = false.
Proof.
  intros (r & [F E] & L & H). split; [now apply ffin_b|].
  unfold f_eq, fzero. rewrite FP.eqb_equiv. destruct c_zero as [F0 E0]. unfold ffin, FR in *.
  rewrite Beqb_correct by assumption. rewrite E, E0. apply Req_bool_false.
  pose proof LO_pos. lra.
Qed.

Lemma in_range_pos x : in_range x -> f_le x fzero = false /\ f_lt fzero x = true.
Proof.
  intros (r & [F E] & L & H). destruct c_zero as [F0 E0]. pose proof LO_pos as HL.
  unfold f_le, f_lt, fzero. rewrite leb_R, ltb_R by assumption. rewrite E, E0. split.
  - apply Rle_bool_false. lra.
  - apply Rlt_bool_true. lra.
Qed.

End Prim.

Section Model.
Local Open Scope Z_scope.

Definition ewma_good (r : rtt_part) : Prop := r_ewma r = fzero \/ in_range (r_ewma r).

Lemma update_rtt_min_ewma r ewma var last rtt now :
  r_ewma (update_rtt_min r ewma var last rtt now) = ewma.
Proof. unfold update_rtt_min. destruct (_ || _ || _)%bool; reflexivity. Qed.

Lemma record_rtt_in_range r rtt now :
  ewma_good r -> in_range rtt -> in_range (r_ewma (record_rtt r rtt now)).
Proof.
  intros Hg Hr. unfold record_rtt.
  destruct (in_range_valid _ Hr) as [Hf _]. destruct (in_range_pos _ Hr) as [Hle _].
  rewrite Hf, Hle. cbn [negb orb].
  destruct (f_eq (r_ewma r) fzero || (2000 <=? ssub now (r_last r)))%bool eqn:E.
  - rewrite update_rtt_min_ewma. exact Hr.
  - apply orb_false_iff in E. destruct E as [E0 _].
    assert (Hp : in_range (r_ewma r)).
    { destruct Hg as [Hz|Hp]; [|exact Hp]. rewrite Hz in E0. vm_compute in E0. discriminate. }
    cbv zeta. rewrite update_rtt_min_ewma. unfold fone.
    apply mix_in_range; try assumption.
    destruct (1000 <=? _); [exact weight_1|]. destruct (500 <=? _); [exact weight_4|].
    destruct (250 <=? _); [exact weight_8|exact weight_16].
Qed.

Lemma pre_tick_good s now i :
  ewma_good (k_rtt s) -> rtt_input_ok (i_rtt i) = true ->
  ewma_good (pre_tick_rtt s now i) /\
  (in_range (r_ewma (k_rtt s)) -> in_range (r_ewma (pre_tick_rtt s now i))).
Proof.
  intros Hg Hok. unfold rtt_input_ok in Hok. apply orb_true_iff in Hok. destruct Hok as [Hn|Hb].
  - apply negb_true_iff in Hn. rewrite pre_tick_rtt_no_sample by exact Hn. split; [exact Hg|auto].
  - apply range_b_in_range in Hb. destruct (in_range_pos _ Hb) as [_ Hlt].
    unfold pre_tick_rtt. rewrite Hlt.
    pose proof (record_rtt_in_range (k_rtt s) (i_rtt i) now Hg Hb) as H. split; [right; exact H|intros _; exact H].
Qed.

Definition rtt_inv (s : link) : Prop :=
  ewma_good (k_rtt s) /\ (c_state (k_core s) <> Bootstrap -> in_range (r_ewma (k_rtt s))).

Lemma rtt_inv_default : rtt_inv link_default.
Proof. split; [left; reflexivity|intro H; exfalso; apply H; reflexivity]. Qed.

Lemma in_range_not_invalid r : in_range (r_ewma r) -> rtt_invalid r = false.
Proof.
  intro H. destruct (in_range_valid _ H) as [Hf He]. unfold rtt_invalid. rewrite Hf, He. reflexivity.
Qed.

Lemma rtt_inv_step s now i : rtt_inv s -> rtt_input_ok (i_rtt i) = true -> rtt_inv (link_step s now i).
Proof.
  intros [Hg Hn] Hok. destruct (pre_tick_good s now i Hg Hok) as [Hg' _].
  split; rewrite link_step_rtt; [exact Hg'|].
  destruct (link_step_shape s now i) as [(_ & Ec)|(Ei & _)].
  - rewrite Ec. intro H. contradiction H. reflexivity.
  - intros _. destruct Hg' as [Hz|Hp]; [|exact Hp].
    rewrite (rtt_invalid_zero _ Hz) in Ei. discriminate.
Qed.

Lemma rtt_inv_stays_valid s now i :
  rtt_inv s -> rtt_input_ok (i_rtt i) = true -> rtt_stays_valid s now i = true.
Proof.
  intros [Hg Hn] Hok. unfold rtt_stays_valid.
  destruct (cc_state_eqb (c_state (k_core s)) Bootstrap) eqn:E; [reflexivity|].
  cbn [orb]. apply negb_true_iff, in_range_not_invalid.
  destruct (pre_tick_good s now i Hg Hok) as [_ H]. apply H, Hn.
  intro Hb. rewrite Hb in E. discriminate.
Qed.

Lemma wf_from_inputs ops : forall c,
  ctrl_all rtt_inv c -> wf_inputs ops = true -> wf_from c ops = true.
Proof.
  induction ops as [|[now inps] t IH]; intros c Hc Hw; [reflexivity|].
  cbn [wf_inputs forallb] in Hw. apply andb_true_iff in Hw. destruct Hw as [Hw1 Hw2].
  cbn [wf_from]. apply andb_true_iff.
  unfold tick_wf_in in Hw1. apply andb_true_iff in Hw1. destruct Hw1 as [Hhead Hall].
  rewrite forallb_forall in Hall.
  split.
  - unfold tick_wf. rewrite Hhead. cbn [andb]. apply forallb_forall. intros i Hi.
    specialize (Hall i Hi). apply andb_true_iff in Hall. destruct Hall as [H1 H2].
    rewrite H1. cbn [andb]. apply rtt_inv_stays_valid; [|exact H2].
    apply getd_all; [apply rtt_inv_default|exact Hc].
  - apply IH; [|exact Hw2].
    apply (ctrl_all_tick_all rtt_inv (fun i => rtt_input_ok (i_rtt i) = true)).
    + apply rtt_inv_default.
    + intros s i Hq Hs. apply rtt_inv_step; assumption.
    + intros i Hi. specialize (Hall i Hi). apply andb_true_iff in Hall. apply Hall.
    + exact Hc.
Qed.

End Model.
