(** ClassicRunP.v — the monitor of Run/Run_C10.v holds on every
    trace of the model (Model/Classic.v with the override guarded). *)
From Coq Require Import Permutation.
From Srtla Require Import Base BaseP Constants Conn ConnP Classic ClassicRef ClassicP ClassicInvP ClassicEvP Run_C10.

Definition Inv (s : shell) : Prop := Forall inv_x (xs s).
Definition wf_op (o : xop) : Prop := match o with XSetWindow _ w => 0 <= w <= WB | _ => True end.

Lemma zb_eqb b : (zb b =? 1) = b.
Proof. destruct b; reflexivity. Qed.

Lemma insert_sorted_perm x l : Permutation (insert_sorted x l) (x :: l).
Proof.
  induction l as [|y l IH]; cbn; [apply Permutation_refl|]. destruct (x <=? y); [apply Permutation_refl|].
  eapply Permutation_trans; [apply perm_skip; exact IH|apply perm_swap].
Qed.
Lemma sort_z_perm l : Permutation (sort_z l) l.
Proof.
  induction l as [|x l IH]; [constructor|].
  change (sort_z (x :: l)) with (insert_sorted x (sort_z l)).
  eapply Permutation_trans; [apply insert_sorted_perm|apply perm_skip; exact IH].
Qed.

Lemma o_keys_length x : length (o_keys (obs_x x)) = length (log (core x)).
Proof.
  change (o_keys (obs_x x)) with (sort_z (map fst (log (core x)))).
  rewrite (Permutation_length (sort_z_perm _)). apply map_length.
Qed.

Lemma wins_obs l : wins (map obs_x l) = map (fun x => window (core x)) l.
Proof. unfold wins. rewrite map_map. reflexivity. Qed.

Lemma rview_obs now tmo x : rview now tmo (obs_x x) = rl_of now tmo x.
Proof.
  unfold rview, rl_of. f_equal.
  - unfold o_usable, usable_x, o_conn, o_reg, o_has_lr, o_lr, fld, obs_x. cbn [fst nth].
    rewrite !zb_eqb. destruct (last_recv (core x)); reflexivity.
  - unfold blen. rewrite o_keys_length. reflexivity.
  - unfold blen, o_queue, obs_x. cbn [fst snd]. rewrite map_length. reflexivity.
Qed.

Lemma put_cores_length : forall l cs, length cs = length l -> length (put_cores l cs) = length l.
Proof. induction l as [|x l IH]; intros [|c cs] H; cbn in *; try lia. rewrite IH by lia. reflexivity. Qed.

Lemma put_cores_cores : forall l cs, length cs = length l -> cores (put_cores l cs) = cs.
Proof. induction l as [|x l IH]; intros [|c cs] H; cbn in *; try lia; [reflexivity|]. rewrite IH by lia. reflexivity. Qed.

Lemma put_cores_rel (R : link -> link -> Prop) : forall l cs,
  Forall2 R (cores l) cs -> Forall2 (fun x x' => R (core x) (core x')) l (put_cores l cs).
Proof.
  induction l as [|x l IH]; intros cs H; inversion H; subst; cbn [put_cores]; constructor; [assumption|].
  apply IH. assumption.
Qed.

Lemma cores_window l : map (fun x => window (core x)) l = map window (cores l).
Proof. unfold cores. rewrite map_map. reflexivity. Qed.

Lemma Inv_cores l : Forall inv_x l <-> Forall inv_link (cores l).
Proof. unfold cores, inv_x. rewrite Forall_map. tauto. Qed.

Definition keeps (x x' : xlink) : Prop := window (core x') = window (core x) /\ (inv_x x -> inv_x x').

Lemma keeps_refl x : keeps x x.
Proof. split; [reflexivity|exact (fun H => H)]. Qed.

Lemma keeps_trans x y z : keeps x y -> keeps y z -> keeps x z.
Proof. intros [W1 I1] [W2 I2]. split; [congruence|auto]. Qed.

Lemma keeps_list l l' : Forall2 keeps l l' ->
  map (fun x => window (core x)) l' = map (fun x => window (core x)) l /\ (Forall inv_x l -> Forall inv_x l').
Proof.
  induction 1 as [|x x' l l' [Hw Hi] _ [IHw IHi]]; [split; [reflexivity|auto]|].
  split; [cbn [map]; rewrite Hw, IHw; reflexivity|]. intros H. inversion H; subst. constructor; auto.
Qed.

Lemma upd_keeps l i f : (forall x, keeps x (f x)) -> Forall2 keeps l (upd i f l).
Proof. intros Hf. apply Forall2_upd; [exact keeps_refl|]. intros x _. apply Hf. Qed.

Lemma register_all_window q : forall c, window (register_all c q) = window c.
Proof.
  unfold register_all. induction q as [|[sq t] q IH]; intros c; cbn; [reflexivity|].
  rewrite IH. destruct sq; reflexivity.
Qed.

(** forward and flush_link touch the core only through take_batch *)
Lemma take_batch_keeps x x1 : core x1 = core x -> keeps x (take_batch x1).
Proof.
  intros E. unfold keeps, inv_x, take_batch. cbn [core set_queue set_core]. rewrite E.
  split; [apply register_all_window|apply inv_register_all].
Qed.

Lemma forward_keeps x seq now : keeps x (fst (forward x seq now)).
Proof.
  unfold forward. cbv zeta. destruct (bsize x <=? _); cbn [fst]; [|exact (keeps_refl x)].
  apply take_batch_keeps. reflexivity.
Qed.
Lemma forward_window x seq now : window (core (fst (forward x seq now))) = window (core x).
Proof. exact (proj1 (forward_keeps x seq now)). Qed.

Lemma flush_keeps x : keeps x (fst (flush_link x)).
Proof.
  unfold flush_link. destruct (queue x); cbn [fst]; [apply keeps_refl|]. apply take_batch_keeps. reflexivity.
Qed.
Lemma flush_window x : window (core (fst (flush_link x))) = window (core x).
Proof. exact (proj1 (flush_keeps x)). Qed.

Lemma srt_ack_window c a : window (handle_srt_ack c a) = window c.
Proof. unfold handle_srt_ack. destruct (a <=? hwm c); reflexivity. Qed.

Lemma srt_ack_keeps a x : keeps x (set_core x (handle_srt_ack (core x) a)).
Proof. split; [apply srt_ack_window|apply inv_srt_ack]. Qed.

(** the stamp changes [last_recv] only, which neither the window nor the invariant reads *)
Lemma stamp_keeps l idx now : Forall2 keeps l (stamp l idx now).
Proof. apply upd_keeps. exact keeps_refl. Qed.
Lemma stamp_window l idx now : map (fun x => window (core x)) (stamp l idx now) = map (fun x => window (core x)) l.
Proof. exact (proj1 (keeps_list _ _ (stamp_keeps l idx now))). Qed.
Lemma stamp_length l idx now : length (stamp l idx now) = length l.
Proof. symmetry. exact (Forall2_length (stamp_keeps l idx now)). Qed.
Lemma stamp_inv l idx now : Forall inv_x l -> Forall inv_link (cores (stamp l idx now)).
Proof. intros H. apply Inv_cores. exact (proj2 (keeps_list _ _ (stamp_keeps l idx now)) H). Qed.

Lemma put_bsizes_cores : forall l bs, cores (put_bsizes l bs) = cores l.
Proof. induction l as [|x l IH]; intros [|b bs]; cbn; auto. rewrite IH. reflexivity. Qed.

Lemma same_cores_keeps : forall l l', cores l' = cores l -> Forall2 keeps l l'.
Proof.
  induction l as [|x l IH]; intros [|x' l'] E; try discriminate; constructor; inversion E as [[Ex El]].
  - unfold keeps, inv_x. rewrite Ex. split; [reflexivity|auto].
  - apply IH. exact El.
Qed.

(** one link of the reference's view ([aview]); [b] says whether it is the arrival link, which
    was stamped *)
Lemma arel_view x now (b : bool) :
  arel (if b then set_conn (core x) (connected (core x)) (Some now) else core x)
       (o_conn (obs_x x), o_has_lr (obs_x x) || b, o_win (obs_x x), o_keys (obs_x x)).
Proof.
  unfold arel, a_conn, a_recv, a_win, a_keys, o_conn, o_has_lr, o_win, fld, has_lr. cbn [fst snd obs_x nth].
  rewrite !zb_eqb. destruct b; rewrite ?orb_true_r, ?orb_false_r; repeat split; exact (sort_z_perm _).
Qed.

Lemma aview_nohit : forall l i arrival, (arrival < i)%nat -> Forall2 arel (cores l) (aview arrival i (map obs_x l)).
Proof.
  induction l as [|x l IH]; intros i arrival H; cbn [cores map aview]; constructor; [|apply IH; lia].
  replace (Nat.eqb i arrival) with false by (symmetry; apply Nat.eqb_neq; lia). exact (arel_view x 0 false).
Qed.

Lemma aview_stamp now : forall l i idx,
  Forall2 arel (cores (stamp l idx now)) (aview (i + idx) i (map obs_x l)).
Proof.
  unfold stamp. induction l as [|x l IH]; intros i idx; [destruct idx; constructor|].
  destruct idx as [|idx]; cbn [upd cores map aview]; constructor.
  - rewrite Nat.add_0_r, Nat.eqb_refl. exact (arel_view x now true).
  - apply aview_nohit. lia.
  - replace (Nat.eqb i (i + S idx)) with false by (symmetry; apply Nat.eqb_neq; lia). exact (arel_view x now false).
  - replace (i + S idx)%nat with (S i + idx)%nat by lia. apply IH.
Qed.

Lemma arel_wins cs als : Forall2 arel cs als -> map window cs = map a_win als.
Proof. induction 1 as [|c a cs als (_ & _ & Hw & _) _ IH]; cbn; [reflexivity|]. rewrite Hw, IH. reflexivity. Qed.

Lemma srtla_fold_length idx now : forall seqs cs,
  length (fold_left (fun cs sq => srtla_ack_event cs idx sq true now) seqs cs) = length cs.
Proof.
  induction seqs as [|sq seqs IH]; intros cs; cbn [fold_left]; [reflexivity|]. rewrite IH. symmetry.
  exact (Forall2i_length _ _ _ _ (step_ltrans {| links := cs; trk := [] |} (Conn.OSrtlaAck idx sq true now))).
Qed.

Lemma srtla_fold_oob idx now : forall seqs cs, nth_error cs idx = None ->
  fold_left (fun cs sq => srtla_ack_event cs idx sq true now) seqs cs = cs.
Proof.
  induction seqs as [|sq seqs IH]; intros cs H; cbn [fold_left]; [reflexivity|].
  unfold srtla_ack_event at 2. rewrite H. apply IH. exact H.
Qed.

Lemma nak_ok_list l l' :
  Forall2 (fun x x' => nrel (core x) (core x')) l l' -> forall2b nak_link_ok (map obs_x l) (map obs_x l') = true.
Proof.
  induction 1 as [|x x' l l' [Hl Hw] _ IH]; cbn [map forall2b]; [reflexivity|]. rewrite IH, andb_true_r.
  unfold nak_link_ok. rewrite !o_keys_length. change (o_win (obs_x x')) with (window (core x')).
  rewrite Hw. change (o_win (obs_x x)) with (window (core x)). rewrite Z.eqb_refl, andb_true_r.
  apply Nat.leb_le. exact Hl.
Qed.

Definition step_good (s : shell) (o : xop) : Prop :=
  mon_step o (obs_shell s) (obs_step (snd (xstep true s o)) (fst (xstep true s o))) = 0%N /\
  Inv (fst (xstep true s o)).

(** for every op but the set-up ops, SRTLA ACK and NAK the monitor only compares windows
    (and, for a packet, the chosen link with the reference's choice) *)
Lemma keeps_good s o :
  Inv s -> Forall2 keeps (xs s) (xs (fst (xstep true s o))) ->
  match o with
  | XPkt _ _ now tmo => fst (snd (xstep true s o)) = select (xs s) now tmo
  | XSrtlaAck _ _ _ | XNak _ _ _ => False
  | _ => True
  end ->
  step_good s o.
Proof.
  intros H HF Ho. destruct (keeps_list _ _ HF) as [Hw Hi]. split; [|exact (Hi H)].
  unfold mon_step, obs_step, obs_shell. cbn [fst snd].
  rewrite !map_length, <- (Forall2_length HF), Nat.eqb_refl, !wins_obs, Hw. cbn [negb].
  destruct o; try contradiction; rewrite ?zlist_eqb_refl; try reflexivity.
  rewrite Ho, map_map, (map_ext _ _ (rview_obs now tmo)), <- select_refines_ref, Z.eqb_refl by exact H. reflexivity.
Qed.

(** set-up ops may move a window; the monitor only asks that no link appears or vanishes *)
Lemma setup_good s o i f :
  match o with XUp _ _ | XDown _ | XSetWindow _ _ => True | _ => False end ->
  xs (fst (xstep true s o)) = upd i f (xs s) -> (forall x, inv_x x -> inv_x (f x)) -> Inv s -> step_good s o.
Proof.
  intros Ho E Hf H. split.
  - unfold mon_step, obs_step, obs_shell. cbn [snd]. rewrite !map_length, E, upd_length, Nat.eqb_refl.
    destruct o; try contradiction; reflexivity.
  - unfold Inv. rewrite E. apply Forall_upd; assumption.
Qed.

Lemma good_setwindow s i w : Inv s -> 0 <= w <= WB -> step_good s (XSetWindow i w).
Proof.
  intros H Hw. eapply setup_good; [exact I|reflexivity| |exact H]. intros x. apply inv_set_window. exact Hw.
Qed.

(** the packet goes where [select] says (the guarded override leaves it alone), and only
    the chosen link changes, by [forward] *)
Lemma good_pkt s seq retx now tmo : Inv s -> step_good s (XPkt seq retx now tmo).
Proof.
  intros H.
  enough (Forall2 keeps (xs s) (xs (fst (xstep true s (XPkt seq retx now tmo)))) /\
          fst (snd (xstep true s (XPkt seq retx now tmo))) = select (xs s) now tmo) as [HF Ho]
    by (apply keeps_good; assumption).
  cbn [xstep]. unfold route.
  pose proof (select_refines_ref (xs s) now tmo H) as Hsel.
  destruct (select (xs s) now tmo) as [k|]; [|split; [apply Forall2_reflexive, keeps_refl|reflexivity]].
  symmetry in Hsel. apply ref_select_lt in Hsel. rewrite map_length in Hsel.
  destruct (nth_error (xs s) k) as [x|] eqn:Ex; [|apply nth_error_None in Ex; lia].
  rewrite (surjective_pairing (forward x seq now)). cbn [fst snd xs]. split; [|reflexivity].
  apply Forall2_upd; [exact keeps_refl|]. intros y Ey. rewrite Ex in Ey. inversion Ey; subst y. apply forward_keeps.
Qed.

(** holds whether or not [idx] names a link: past the end the model drops the datagram, and the
    stamp and every event leave the list as it is *)
Lemma srtlaack_cores s idx seqs now : let l' := xs (fst (xstep true s (XSrtlaAck idx seqs now))) in
  length l' = length (xs s) /\
  cores l' = fold_left (fun cs sq => srtla_ack_event cs idx sq true now) seqs (cores (stamp (xs s) idx now)).
Proof.
  cbn [xstep]. destruct (nth_error (xs s) idx) eqn:En; cbn [quiet with_xs fst xs].
  - set (l1 := stamp (xs s) idx now). set (cs := fold_left _ seqs (cores l1)).
    assert (Hlen : length cs = length l1) by (unfold cs; rewrite srtla_fold_length; apply map_length).
    split; [rewrite put_cores_length by exact Hlen; apply stamp_length|apply put_cores_cores, Hlen].
  - split; [reflexivity|]. unfold stamp. rewrite upd_ge by (apply Nat.ltb_ge, nth_error_None, En).
    rewrite srtla_fold_oob; [reflexivity|]. unfold cores. rewrite nth_error_map, En. reflexivity.
Qed.

Lemma good_srtlaack s idx seqs now : Inv s -> step_good s (XSrtlaAck idx seqs now).
Proof.
  intros H. pose proof (aview_stamp now (xs s) 0 idx) as Hav. cbn [Nat.add] in Hav.
  destruct (srtla_ack_fold_ref idx now seqs _ _ Hav (stamp_inv _ idx now H)) as [Hrel Hinv].
  apply arel_wins in Hrel. destruct (srtlaack_cores s idx seqs now) as [Hlen Hc]. rewrite <- Hc in Hrel, Hinv.
  split; [|apply Inv_cores; exact Hinv].
  unfold mon_step, obs_step, obs_shell. cbn [fst snd]. rewrite !map_length, Hlen, Nat.eqb_refl. cbn [negb].
  rewrite <- Hrel, wins_obs, cores_window, zlist_eqb_refl. reflexivity.
Qed.

Lemma good_nak s idx seqs now : Inv s -> step_good s (XNak idx seqs now).
Proof.
  intros H. unfold step_good, obs_step. cbn [xstep].
  assert (Hn : forall l', Forall2 (fun x x' => nrel (core x) (core x')) (xs s) l' ->
            mon_step (XNak idx seqs now) (obs_shell s) (zon None, zeros l', map obs_x l') = 0%N).
  { intros l' Hl. unfold mon_step, obs_shell. cbn [fst snd].
    rewrite !map_length, (Forall2_length Hl), Nat.eqb_refl, nak_ok_list by exact Hl. reflexivity. }
  destruct (nth_error (xs s) idx) as [x0|].
  2:{ split; [|exact H]. apply Hn. apply Forall2_reflexive. intros x. apply nrel_refl. }
  destruct (nak_fold_ref (tr s) now seqs _ (stamp_inv _ idx now H)) as [Hrel Hinv].
  unfold quiet, with_xs. cbn [fst snd xs]. split.
  - apply Hn. eapply Forall2_trans; [intros x y z; apply nrel_trans| |apply put_cores_rel; exact Hrel].
    apply Forall2_upd; intros x; [|intros _]; exact (nrel_refl (core x)).
  - unfold Inv. cbn [xs]. apply Inv_cores. rewrite put_cores_cores; [exact Hinv|].
    rewrite <- (Forall2_length Hrel). unfold cores. apply map_length.
Qed.

Theorem step_ok s o : Inv s -> wf_op o -> step_good s o.
Proof.
  intros H Hw. destruct o.
  - eapply setup_good; [exact I|reflexivity| |exact H]. intros x _. apply inv_fresh; reflexivity.
  - eapply setup_good; [exact I|reflexivity| |exact H]. intros x _. apply inv_fresh; reflexivity.
  - apply good_setwindow; [exact H|exact Hw].
  - apply keeps_good; [exact H|apply upd_keeps; exact keeps_refl|exact I].
  - apply keeps_good; [exact H|apply upd_keeps; exact keeps_refl|exact I].
  - apply keeps_good; [exact H|apply upd_keeps; exact keeps_refl|exact I].
  - apply keeps_good; [exact H|apply Forall2_reflexive, keeps_refl|exact I].
  - apply keeps_good; [exact H|apply Forall2_reflexive, keeps_refl|exact I].
  - apply good_pkt; exact H.
  - apply keeps_good; [exact H|apply Forall2_map_r, flush_keeps|exact I].
  - apply good_srtlaack; exact H.
  - apply keeps_good; [exact H| |exact I]. cbn [xstep].
    destruct (nth_error (xs s) idx); [|apply Forall2_reflexive, keeps_refl].
    eapply Forall2_trans; [exact keeps_trans|apply stamp_keeps|apply Forall2_map_r, srt_ack_keeps].
  - apply good_nak; exact H.
  - apply keeps_good; [exact H|apply same_cores_keeps, put_bsizes_cores|exact I].
Qed.

Definition model_trace (g : bool) (s : shell) (ops : list xop) : list (xop * fobs) :=
  map (fun t => (fst (fst t), obs_step (snd (fst t)) (snd t))) (xrun g s ops).

Lemma run_mon_model : forall ops s i, Inv s -> Forall wf_op ops ->
  run_mon (obs_shell s) (model_trace true s ops) i = (0, 0)%N.
Proof.
  induction ops as [|o ops IH]; intros s i H Hw; [reflexivity|].
  inversion Hw as [|? ? Ho Hops]; subst.
  destruct (step_ok s o H Ho) as [Hm Hi].
  unfold model_trace. cbn [xrun]. destruct (xstep true s o) as [s' ou] eqn:E. cbn [map fst snd run_mon].
  cbn [fst snd] in Hm, Hi. rewrite Hm. cbn [N.eqb].
  change (snd (obs_step ou s')) with (obs_shell s'). apply IH; assumption.
Qed.

Lemma Inv_init n g : Inv (xinit n g).
Proof.
  unfold Inv, xinit. cbn [xs]. generalize 0. induction n as [|n IH]; intros i; cbn [mk_links]; constructor.
  - apply inv_fresh; reflexivity.
  - apply IH.
Qed.

Definition xfinal (g : bool) (s : shell) (ops : list xop) : shell := fold_left (fun s o => fst (xstep g s o)) ops s.

Lemma Inv_final : forall ops s, Inv s -> Forall wf_op ops -> Inv (xfinal true s ops).
Proof.
  induction ops as [|o ops IH]; intros s H Hw; [exact H|].
  inversion Hw; subst. cbn [xfinal fold_left]. apply IH; [|assumption].
  apply (step_ok s o); assumption.
Qed.

(** the unguarded override departs from the reference: link 1 has the larger score, the
    quality caches are all 1.0, a retransmit-flagged packet goes to link 0 *)
Definition f5_state : shell :=
  xfinal true (xinit 2 0) [XUp 0 1000; XUp 1 1000; XSetWindow 0 10000; XSetWindow 1 40000].
