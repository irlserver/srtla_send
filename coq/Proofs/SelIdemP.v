(** Idempotence: selecting again on the state a select left behind (same previous
    index, clock, settings) returns the same uplink and leaves the state unchanged. *)
From Coq Require Import ZArith List Bool Lia Floats.
From Srtla Require Import Base Constants Select Run_Sel SelectP.
Import ListNotations.
Local Open Scope Z_scope.

Lemma st_eq a b :
  s_pulled a = s_pulled b -> s_pulls a = s_pulls b -> s_latched a = s_latched b ->
  s_recov a = s_recov b -> s_gev a = s_gev b -> a = b.
Proof. destruct a, b; cbn; intros; subst; reflexivity. Qed.

Lemma pull_st_shape sl sp z :
  pull_st sl sp z = St (s_pulled (pull_st sl sp z)) (s_pulls (pull_st sl sp z)) (s_latched z) (s_recov z) (s_gev z).
Proof. destruct z as [pu pl la re ge]. unfold pull_st. destruct sl, sp, pu; reflexivity. Qed.

Lemma pull_st_pp sl sp z z' :
  s_pulled z = s_pulled z' -> s_pulls z = s_pulls z' ->
  s_pulled (pull_st sl sp z) = s_pulled (pull_st sl sp z') /\ s_pulls (pull_st sl sp z) = s_pulls (pull_st sl sp z').
Proof.
  destruct z as [pu pl la re ge], z' as [pu' pl' la' re' ge']; cbn. intros -> ->.
  unfold pull_st. cbn. destruct sl, sp, pu'; cbn; auto.
Qed.

Lemma pull_st_idem sl sp x : pull_st sl sp (pull_st sl sp x) = pull_st sl sp x.
Proof. destruct x as [pu pl la re ge]. unfold pull_st. destruct sl, sp, pu; reflexivity. Qed.

Lemma latch_st_pp a b f d n y :
  s_pulled (latch_st a b f d n y) = s_pulled y /\ s_pulls (latch_st a b f d n y) = s_pulls y.
Proof.
  unfold latch_st. destruct (a || _); [now split|]. destruct (s_latched y =? 0); [now split|].
  destruct (negb f); [now split|]. cbv zeta. now destruct (_ <=? _).
Qed.

(** 0 is the "never latched" sentinel of the code, hence [0 < n] *)
Lemma latch_st_idem a b f d n y : 0 < n -> latch_st a b f d n (latch_st a b f d n y) = latch_st a b f d n y.
Proof.
  intros Hn. assert (N0 : (n =? 0) = false) by (apply Z.eqb_neq; lia).
  destruct y as [pu pl la re ge]. unfold latch_st. cbn [s_pulled s_pulls s_latched s_recov s_gev].
  destruct (a || pu && b) eqn:C1; cbn [s_pulled s_pulls s_latched s_recov s_gev]; rewrite ?C1.
  - destruct (la =? 0) eqn:La; cbn [s_latched]; rewrite ?N0, ?La; reflexivity.
  - destruct (la =? 0) eqn:La; cbn [s_pulled s_pulls s_latched s_recov s_gev]; rewrite ?C1, ?La; [reflexivity|].
    destruct (negb f) eqn:Nf; cbn [s_pulled s_pulls s_latched s_recov s_gev]; rewrite ?C1, ?La, ?Nf; [reflexivity|].
    cbv zeta. destruct (re =? 0) eqn:Re.
    + destruct (d <=? ssub n n) eqn:D; cbn [s_pulled s_pulls s_latched s_recov s_gev]; rewrite ?C1, ?La, ?Nf, ?N0, ?D; reflexivity.
    + destruct (d <=? ssub n re) eqn:D; cbn [s_pulled s_pulls s_latched s_recov s_gev]; rewrite ?C1, ?La, ?Nf, ?Re, ?D; reflexivity.
Qed.

Lemma gate_st_idem silent spoke stalled pfs fresh dwell now x :
  0 < now ->
  gate_st silent spoke stalled pfs fresh dwell now (gate_st silent spoke stalled pfs fresh dwell now x) =
  gate_st silent spoke stalled pfs fresh dwell now x.
Proof.
  intros Hnow. unfold gate_st.
  set (y := pull_st silent spoke x). set (z := latch_st stalled pfs fresh dwell now y).
  assert (E : pull_st silent spoke z = z).
  { destruct (latch_st_pp stalled pfs fresh dwell now y) as (E1 & E2). fold z in E1, E2.
    destruct (pull_st_pp silent spoke z y E1 E2) as (Q1 & Q2).
    assert (Ey : pull_st silent spoke y = y) by apply pull_st_idem. rewrite Ey in Q1, Q2.
    rewrite pull_st_shape. apply st_eq; cbn [s_pulled s_pulls s_latched s_recov s_gev]; congruence. }
  rewrite E. unfold z. now apply latch_st_idem.
Qed.

Definition settled (now : Z) (cfg : config) (y : link) : Prop :=
  l_timeout y = c_timeout cfg /\ gate_st_of now cfg y (st_of y) = st_of y.

Lemma gate_upd_settled now cfg c : 0 < now -> settled now cfg (gate_upd now cfg c).
Proof.
  intros Hn. rewrite gate_upd_eq. split; [reflexivity|].
  rewrite st_of_with_st.
  rewrite (gate_st_of_pv now cfg _ c) by reflexivity. unfold gate_st_of. now apply gate_st_idem.
Qed.

Lemma settled_fix now cfg y : settled now cfg y -> gate_upd now cfg y = y.
Proof.
  intros (Ht & Hf). rewrite gate_upd_eq, Hf. rewrite <- Ht. now destruct y.
Qed.

Definition gated_ok (ah : bool) (y : link) : Prop := l_gated y = ah && (stall_latched y || l_pulled y).
Definition off_ok (cfg : config) (y : link) : Prop :=
  l_timeout y = c_timeout cfg /\ l_gated y = false /\ l_pulled y = false /\ l_latched y = 0 /\ l_recov y = 0.

Lemma map_id_on {A} (f : A -> A) l : Forall (fun x => f x = x) l -> map f l = l.
Proof. induction 1; cbn; congruence. Qed.

Lemma gate_fix_on now cfg l :
  c_stall cfg = true -> Forall (settled now cfg) l -> Forall (gated_ok (existsb (healthy now) l)) l ->
  apply_stall_gate l now cfg = l.
Proof.
  intros Hs Hset Hg. rewrite apply_stall_gate_eq, Hs. cbn [negb]. cbv zeta.
  rewrite (map_id_on (gate_upd now cfg) l).
  2:{ eapply Forall_impl; [|exact Hset]. intros y Hy. now apply settled_fix. }
  apply map_id_on. eapply Forall_impl; [|exact Hg]. intros y Hy. unfold gated_ok in Hy.
  unfold gate_set. rewrite <- Hy. now destruct y.
Qed.

Lemma gate_fix_off cfg now l :
  c_stall cfg = false -> Forall (off_ok cfg) l -> apply_stall_gate l now cfg = l.
Proof.
  intros Hs H. rewrite apply_stall_gate_eq, Hs. cbn [negb]. apply map_id_on.
  eapply Forall_impl; [|exact H]. intros y (H1 & H2 & H3 & H4 & H5).
  destruct y; cbn in *. subst. reflexivity.
Qed.

Lemma existsb_healthy_gate_set now ah l :
  existsb (healthy now) (map (gate_set ah) l) = existsb (healthy now) l.
Proof. induction l; cbn [map existsb]; [reflexivity|]. now rewrite IHl. Qed.

Lemma gate_out_on now cfg s :
  0 < now -> c_stall cfg = true ->
  Forall (settled now cfg) (apply_stall_gate s now cfg) /\
  Forall (gated_ok (existsb (healthy now) (apply_stall_gate s now cfg))) (apply_stall_gate s now cfg).
Proof.
  intros Hn Hs. rewrite apply_stall_gate_eq, Hs. cbn [negb]. cbv zeta.
  set (ls2 := map (gate_upd now cfg) s). set (ah := existsb (healthy now) ls2).
  rewrite existsb_healthy_gate_set. fold ah.
  assert (H2 : Forall (settled now cfg) ls2).
  { subst ls2. apply Forall_forall. intros y Hy. apply in_map_iff in Hy. destruct Hy as (c & <- & _).
    now apply gate_upd_settled. }
  split.
  - apply Forall_forall. intros y Hy. apply in_map_iff in Hy. destruct Hy as (x & <- & Hx).
    rewrite Forall_forall in H2. exact (H2 x Hx).
  - apply Forall_forall. intros y Hy. apply in_map_iff in Hy. destruct Hy as (x & <- & Hx). reflexivity.
Qed.

Lemma gate_out_off now cfg s :
  c_stall cfg = false -> Forall (off_ok cfg) (apply_stall_gate s now cfg).
Proof.
  intros Hs. rewrite apply_stall_gate_eq, Hs. cbn [negb].
  apply Forall_forall. intros y Hy. apply in_map_iff in Hy. destruct Hy as (x & <- & _).
  repeat split.
Qed.

(** what makes the gate pass the identity is read through [nc], which the scoring loop keeps *)
Lemma gate_fix_after_loop now cfg s s' :
  0 < now -> Forall2 (fun c c' => nc c = nc c') (apply_stall_gate s now cfg) s' ->
  apply_stall_gate s' now cfg = s'.
Proof.
  intros Hn R. destruct (c_stall cfg) eqn:Hs.
  - destruct (gate_out_on now cfg s Hn Hs) as (H1 & H2).
    apply gate_fix_on; [exact Hs| |].
    + exact (reads_Forall nc (settled now cfg) _ _ (fun _ => eq_refl) R H1).
    + rewrite <- (reads_existsb nc (healthy now) _ _ (fun _ => eq_refl) R).
      exact (reads_Forall nc (gated_ok _) _ _ (fun _ => eq_refl) R H2).
  - apply gate_fix_off; [exact Hs|].
    exact (reads_Forall nc (off_ok cfg) _ _ (fun _ => eq_refl) R (gate_out_off now cfg s Hs)).
Qed.

Lemma cache_fresh_const : (QUALITY_CACHE_INTERVAL_MS <=? 0) = false.
Proof. reflexivity. Qed.

Lemma score_link_again au q now e c s c' :
  score_link au q now e c = Some (s, c') -> forall e', score_link au q now e' c' = Some (s, c').
Proof.
  unfold score_link. destruct (skipped now c) eqn:Sk; [discriminate|].
  destruct (au && in_flight_cap_exceeded c) eqn:Cp; [discriminate|].
  destruct (negb q) eqn:Nq.
  - intros E e'. inversion E; subst. rewrite Sk, Cp. reflexivity.
  - unfold cached_quality. destruct (QUALITY_CACHE_INTERVAL_MS <=? ssub now (l_qlast c)) eqn:St.
    + intros E e'. inversion E; subst; clear E.
      change (skipped now (upd_hid c (h_set_q (calc_quality c now e) now))) with (skipped now c).
      change (in_flight_cap_exceeded (upd_hid c (h_set_q (calc_quality c now e) now))) with (in_flight_cap_exceeded c).
      rewrite Sk, Cp.
      change (l_qlast (upd_hid c (h_set_q (calc_quality c now e) now))) with now.
      replace (ssub now now) with 0 by (unfold ssub; lia). rewrite cache_fresh_const. reflexivity.
    + intros E e'. inversion E; subst. rewrite Sk, Cp, St. reflexivity.
Qed.

Lemma score_link_none_again au q now e c :
  score_link au q now e c = None -> forall e', score_link au q now e' c = None.
Proof.
  unfold score_link. destruct (skipped now c); [reflexivity|].
  destruct (au && in_flight_cap_exceeded c); [reflexivity|].
  destruct (negb q); [discriminate|]. now destruct (cached_quality c now e).
Qed.

Lemma link_again au q now e e' c :
  link_score au q now e' (link_after au q now e c) = link_score au q now e c /\
  link_after au q now e' (link_after au q now e c) = link_after au q now e c.
Proof.
  unfold link_score, link_after. destruct (score_link au q now e c) as [(s, c')|] eqn:E.
  - now rewrite (score_link_again _ _ _ _ _ _ _ E e').
  - now rewrite (score_link_none_again _ _ _ _ _ E e').
Qed.

Lemma enhanced_select_again ls last now q exps exps' :
  enhanced_select (snd (enhanced_select ls last now q exps)) last now q exps' = enhanced_select ls last now q exps.
Proof.
  rewrite !enhanced_select_eq. cbv zeta. cbn [snd].
  set (au := existsb (unconstrained now) ls).
  rewrite <- (reads_existsb nc (unconstrained now) ls _ (fun _ => eq_refl) (links_after_nc ls exps au q now)).
  fold au. unfold score_list, links_after. rewrite !map_exps_again; [reflexivity|..]; intros; apply link_again.
Qed.

Theorem select_idempotent s last now cfg exps exps' :
  0 < now -> c_mode cfg = Enhanced ->
  select (snd (select s last now cfg exps)) last now cfg exps' = select s last now cfg exps.
Proof.
  intros Hn Hm. unfold select. rewrite Hm.
  set (q := c_quality cfg && true).
  set (ls1 := apply_stall_gate s now cfg).
  pose proof (enhanced_select_again ls1 last now q exps exps') as A.
  assert (G : apply_stall_gate (snd (enhanced_select ls1 last now q exps)) now cfg
              = snd (enhanced_select ls1 last now q exps)).
  { apply (gate_fix_after_loop now cfg s); [exact Hn|]. fold ls1.
    rewrite enhanced_select_eq. apply links_after_nc. }
  rewrite G. exact A.
Qed.
