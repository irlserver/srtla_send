(** LeafCritP.v — CriticalWindow::{extend_to, is_critical_now} (crates/srtla-core/src/priority.rs) as regenerated
    from the Rust source on every run (coq/Gen/LeafCrit.v) = the critical-window deadline of Model/Classic.v
    (C10: [crit], op [XCritical], the override test of [route]).  See DESIGN.md §12.8 (third batch).
    Atomics are plain fields (fetch_max = Z.max, fetch_add = wrapping +).  In Model/Route.v (C04) the open
    window is an input boolean of [route], so there is nothing to equate there. *)
From Srtla Require Import Base Constants LeafCrit LeafTac.
From Srtla Require Classic.
Local Open Scope Z_scope.

Lemma leaf_crit_extend_to_ok g s d wr :
  fst (Classic.xstep g s (Classic.XCritical d)) =
  {| Classic.xs := Classic.xs s; Classic.tr := Classic.tr s;
     Classic.crit := fst (leaf_crit_extend_to (Classic.crit s) wr d) |}.
Proof. cbn [Classic.xstep Classic.quiet fst]; f_equal; leaf_auto2. Qed.

Lemma leaf_crit_extend_to_count_ok c wr d :
  snd (leaf_crit_extend_to c wr d) = (wr + 1) mod two64.
Proof. leaf_auto2. Qed.

Lemma leaf_crit_is_critical_now_ok s now :
  (now <? Classic.crit s) = leaf_crit_is_critical_now (Classic.crit s) now.
Proof. leaf_auto2. Qed.

Lemma leaf_crit_route_ok s q retx now tmo :
  Classic.route false s (Some q) retx now tmo =
  let sel := Classic.select (Classic.xs s) now tmo in
  if leaf_crit_is_critical_now (Classic.crit s) now || retx
  then match Classic.best_quality (Classic.xs s) with Some b => Some b | None => sel end
  else sel.
Proof. unfold Classic.route. rewrite leaf_crit_is_critical_now_ok. reflexivity. Qed.

Lemma leaf_crit_extend_then_open c wr d now :
  leaf_crit_is_critical_now (fst (leaf_crit_extend_to c wr d)) now =
  leaf_crit_is_critical_now c now || leaf_crit_is_critical_now d now.
Proof. leaf_auto2. Qed.
