(** The C13 monitor accepts every trace of the model (invariant linking the
    monitor's own "fresh run" bookkeeping to [stall_recovery_since_ms]), and the step-level
    facts about engaging, releasing and the pull that the C13 statements rest on. *)
From Coq Require Import ZifyBool.
From Srtla Require Import Base Constants Stall StallSel StallOps Run_Stall Run_C13 StallP.
Local Open Scope Z_scope.

(** the monitor's vocabulary is the model's, with the property's literals *)
Lemma spec_eff_ok : forall l cfg, spec_eff l cfg = eff_stale (lx l) (cf_ceil cfg).
Proof. reflexivity. Qed.
Lemma spec_window_ok : forall l cfg, spec_window l cfg = pull_window (lx l) (cf_ceil cfg).
Proof. reflexivity. Qed.
Lemma spec_fresh_ok : forall l now cfg, spec_fresh l now cfg = proof_fresh (la l) (lx l) now (cf_ceil cfg).
Proof. reflexivity. Qed.
Lemma spec_dwell_ok : forall l cfg, sat_mul_u64 (spec_eff l cfg) 2 = dwell (lx l) (cf_ceil cfg).
Proof. reflexivity. Qed.

Lemma first_clause_ok : forall l, forallb snd l = true -> first_clause l = 0%N.
Proof.
  induction l as [|[n b] t IH]; cbn; intros H; [reflexivity|].
  apply andb_true_iff in H as [-> H]. auto.
Qed.

Lemma latched_iff l : latched l = true <-> g_latched (lg l) <> 0.
Proof. unfold latched. lia. Qed.

Lemma pull_step_fields : forall a x now mn ceil g,
  let g1 := pull_step a x now mn ceil g in
  g_latched g1 = g_latched g /\ g_recovery g1 = g_recovery g /\ g_events g1 = g_events g /\
  g_probe g1 = g_probe g /\ g_gated g1 = g_gated g.
Proof.
  intros. subst g1. destruct (pull_step_frame a x now mn ceil g) as (b & n & -> & _). cbn. auto.
Qed.

Lemma pull_step_release : forall a x now mn ceil g,
  g_pulled g = true -> g_pulled (pull_step a x now mn ceil g) = false ->
  spoke a x now ceil = true \/ a_conn a = false.
Proof.
  intros a x now mn ceil g Hp. unfold pull_step.
  destruct (briefly_silent a x now mn ceil); [cbn; discriminate|].
  rewrite Hp; cbn [negb].
  destruct (spoke a x now ceil) eqn:S; [auto|]. cbn [orb].
  destruct (a_conn a); cbn; [congruence | auto].
Qed.

Lemma pull_engage : forall a x now mn ceil g,
  g_pulled g = false -> g_pulled (pull_step a x now mn ceil g) = true ->
  briefly_silent a x now mn ceil = true /\ g_pulls (pull_step a x now mn ceil g) = g_pulls g + 1.
Proof.
  intros a x now mn ceil g Hp. unfold pull_step.
  destruct (briefly_silent a x now mn ceil); [rewrite Hp; cbn; auto|].
  rewrite Hp. cbn. congruence.
Qed.

Lemma stale_not_fresh {a x now ceil} : proof_stale a x now ceil = true -> proof_fresh a x now ceil = false.
Proof. unfold proof_stale, proof_fresh. lia. Qed.

Lemma proof_stale_iff a x now ceil :
  proof_stale a x now ceil = true <-> a_proof a <> 0 /\ eff_stale x ceil <= ssub now (a_proof a).
Proof. unfold proof_stale. lia. Qed.

Lemma trigger_stale {a x now mn ceil} {pulled : bool} :
  is_stalled a x now mn ceil || pulled && proof_stale a x now ceil = true ->
  proof_stale a x now ceil = true /\ ((a_conn a = true /\ mn <= a_inflight a) \/ pulled = true).
Proof.
  unfold is_stalled. destruct (proof_stale a x now ceil); [|rewrite !andb_false_r; discriminate].
  rewrite !andb_true_r. intros H. split; [reflexivity|].
  apply orb_true_iff in H as [H|H]; [left | right; exact H].
  apply andb_true_iff in H as [C M]. split; [exact C | apply Z.leb_le; exact M].
Qed.

(** the invariant: while latched, proof has been seen and the monitor's run start [rs] is
    the link's [stall_recovery_since_ms] *)
Definition Inv (l : link) (rs : option Z) : Prop :=
  latched l = true ->
  a_proof (la l) <> 0 /\ rs = (if g_recovery (lg l) =? 0 then None else Some (g_recovery (lg l))).

Lemma ungate_fields : forall g g', ungate g = ungate g' ->
  g_latched g = g_latched g' /\ g_recovery g = g_recovery g' /\ g_events g = g_events g' /\
  g_probe g = g_probe g' /\ g_pulled g = g_pulled g' /\ g_pulls g = g_pulls g'.
Proof. unfold ungate. intros g g' H. injection H. auto 10. Qed.

(** The [gate_*] lemmas say what one decision does to one link's guard [g], given the link's
    accounting and aux state; [g'] is the guard afterwards, up to the gated flag. *)
Lemma gate_guard_off {now cfg a x g g'} : ungate g' = ungate (gate_guard now cfg a x g) -> cf_guard cfg = false ->
  g_latched g' = 0 /\ g_pulled g' = false.
Proof.
  intros U G. unfold gate_guard in U. rewrite G in U.
  apply ungate_fields in U as (-> & _ & _ & _ & -> & _). split; reflexivity.
Qed.

Lemma gate_pull {now cfg a x g g'} : ungate g' = ungate (gate_guard now cfg a x g) -> cf_guard cfg = true ->
  g_pulled g' = g_pulled (pull_step a x now (cf_min cfg) (cf_ceil cfg) g) /\
  g_pulls g' = g_pulls (pull_step a x now (cf_min cfg) (cf_ceil cfg) g).
Proof.
  intros U G. unfold gate_guard in U. rewrite G in U.
  apply ungate_fields in U as (_ & _ & _ & _ & -> & ->).
  destruct (latch_step_frame a x now (cf_min cfg) (cf_ceil cfg)
              (pull_step a x now (cf_min cfg) (cf_ceil cfg) g)) as (lt & rc & ev & -> & _).
  split; reflexivity.
Qed.

Lemma gate_latch {now cfg a x g g'} : ungate g' = ungate (gate_guard now cfg a x g) -> cf_guard cfg = true ->
  (g_latched g', g_recovery g', g_events g') =
  if is_stalled a x now (cf_min cfg) (cf_ceil cfg)
     || g_pulled g' && proof_stale a x now (cf_ceil cfg)
  then (if g_latched g =? 0 then (now, 0, g_events g + 1) else (g_latched g, 0, g_events g))
  else if g_latched g =? 0 then (0, g_recovery g, g_events g)
  else if proof_fresh a x now (cf_ceil cfg)
  then (if dwell x (cf_ceil cfg) <=? ssub now (if g_recovery g =? 0 then now else g_recovery g)
        then (0, 0, g_events g)
        else (g_latched g, (if g_recovery g =? 0 then now else g_recovery g), g_events g))
  else (g_latched g, 0, g_events g).
Proof.
  intros U G. destruct (gate_pull U G) as [-> _].
  unfold gate_guard in U. rewrite G in U.
  destruct (pull_step_frame a x now (cf_min cfg) (cf_ceil cfg) g) as (b & n & E & _).
  rewrite E in *. apply ungate_fields in U as (-> & -> & -> & _). unfold latch_step. cbn [g_latched g_recovery g_events g_pulled].
  destruct (is_stalled _ _ _ _ _ || _); [destruct (g_latched g =? 0); reflexivity|].
  destruct (Z.eqb_spec (g_latched g) 0) as [->|]; [reflexivity|].
  destruct (proof_fresh _ _ _ _); cbn [negb]; [|reflexivity]. destruct (dwell _ _ <=? _); reflexivity.
Qed.

Lemma gate_engage {now cfg a x g g'} :
  ungate g' = ungate (gate_guard now cfg a x g) -> g_latched g = 0 -> g_latched g' <> 0 ->
  cf_guard cfg = true /\ proof_stale a x now (cf_ceil cfg) = true /\
  ((a_conn a = true /\ cf_min cfg <= a_inflight a) \/ g_pulled g' = true) /\
  g_latched g' = now /\ g_events g' = g_events g + 1 /\ g_recovery g' = 0.
Proof.
  intros U L0 L1. destruct (cf_guard cfg) eqn:G; [|destruct (gate_guard_off U G); congruence].
  pose proof (gate_latch U G) as T. rewrite L0 in T. cbn [Z.eqb] in T.
  destruct (is_stalled _ _ _ _ _ || _) eqn:Tr; injection T as T1 T2 T3; [|congruence].
  destruct (trigger_stale Tr). auto 10.
Qed.

Lemma gate_release {now cfg a x g g'} :
  ungate g' = ungate (gate_guard now cfg a x g) -> g_latched g <> 0 -> g_latched g' = 0 ->
  cf_guard cfg = false \/
  (proof_fresh a x now (cf_ceil cfg) = true /\
   dwell x (cf_ceil cfg) <= ssub now (if g_recovery g =? 0 then now else g_recovery g)).
Proof.
  intros U L0 L1. destruct (cf_guard cfg) eqn:G; [right | left; reflexivity].
  pose proof (gate_latch U G) as T. rewrite L1 in T.
  destruct (Z.eqb_spec (g_latched g) 0); [contradiction|].
  destruct (is_stalled _ _ _ _ _ || _); [congruence|].
  destruct (proof_fresh _ _ _ _); [|congruence].
  destruct (Z.leb_spec (dwell x (cf_ceil cfg)) (ssub now (if g_recovery g =? 0 then now else g_recovery g)));
    [auto | congruence].
Qed.

Lemma gate_keep {now cfg a x g g'} :
  ungate g' = ungate (gate_guard now cfg a x g) -> g_latched g' <> 0 ->
  cf_guard cfg = true /\
  g_recovery g' =
  if proof_fresh a x now (cf_ceil cfg)
  then (if g_recovery g =? 0 then now else g_recovery g) else 0.
Proof.
  intros U L1. destruct (cf_guard cfg) eqn:G; [|destruct (gate_guard_off U G); congruence].
  split; [reflexivity|]. pose proof (gate_latch U G) as T.
  destruct (is_stalled _ _ _ _ _ || _) eqn:Tr.
  - destruct (trigger_stale Tr) as [S _]. rewrite (stale_not_fresh S).
    destruct (g_latched g =? 0); congruence.
  - destruct (g_latched g =? 0); [congruence|].
    destruct (proof_fresh _ _ _ _); [|congruence]. destruct (dwell _ _ <=? _); congruence.
Qed.

(** Clause 1 is [gate_engage], clause 3 is [gate_release] read through the invariant, clause 4 is
    [pull_step_release]; [gate_keep] carries the invariant across. *)
Lemma call_ok : forall rs now cfg l l',
  0 < now -> decided now cfg l l' -> Inv l rs ->
  snd (mon_step rs (KCall now cfg) l l') = 0%N /\ Inv l' (fst (mon_step rs (KCall now cfg) l l')).
Proof.
  intros rs now cfg l l' Hnow (A & _ & U & _) HI. unfold Inv in *. rewrite latched_iff in *.
  unfold mon_step, latched. rewrite A.
  destruct (cf_guard cfg) eqn:G; cbn [fst snd].
  2:{ destruct (gate_guard_off U G) as [L1 _]. rewrite L1. cbn. rewrite andb_false_r.
      split; [reflexivity | congruence]. }
  pose proof (gate_engage U) as EN. pose proof (gate_release U) as RE.
  pose proof (gate_keep U) as KE.
  rewrite spec_dwell_ok, spec_fresh_ok, spec_window_ok, spec_eff_ok.
  set (a := la l) in *. set (x := lx l) in *. set (g := lg l) in *. set (g' := lg l') in *.
  (* clause 2 (never blind) at one decision *)
  assert (SP : g_latched g' <> 0 -> a_proof a <> 0).
  { intros L1. destruct (Z.eq_dec (g_latched g) 0) as [L0|L0]; [|apply HI; exact L0].
    destruct (EN L0 L1) as (_ & S & _). apply proof_stale_iff in S as [S _]. exact S. }
  split.
  - apply first_clause_ok. cbn [forallb snd]. repeat (apply andb_true_intro; split); [| | | |reflexivity].
    + destruct (Z.eqb_spec (g_latched g) 0) as [L0|]; [|reflexivity].
      destruct (Z.eqb_spec (g_latched g') 0) as [|L1]; [reflexivity|].
      destruct (EN L0 L1) as (_ & S & C & _). unfold proof_stale in S. clear - S C. lia.
    + destruct (Z.eqb_spec (g_latched g') 0) as [|L1]; [reflexivity|].
      specialize (SP L1). clear - SP. lia.
    + destruct (Z.eqb_spec (g_latched g) 0) as [|L0]; [reflexivity|].
      destruct (Z.eqb_spec (g_latched g') 0) as [L1|]; [|reflexivity].
      destruct (RE L0 L1) as [|[-> Dw]]; [congruence|]. destruct (HI L0) as [_ ->].
      destruct (g_recovery g =? 0); clear - Dw; cbn; lia.
    + destruct (g_pulled g) eqn:P0; [|reflexivity]. destruct (g_pulled g') eqn:P1; [reflexivity|].
      destruct (gate_pull U G) as [P _]. rewrite P in P1.
      destruct (pull_step_release _ _ _ _ _ _ P0 P1) as [S | ->]; [|reflexivity].
      unfold spoke in S. rewrite S. apply orb_true_r.
  - intros L1. split; [exact (SP L1)|]. destruct (KE L1) as [_ ->].
    destruct (Z.eq_dec (g_latched g) 0) as [L0|L0].
    + destruct (EN L0 L1) as (_ & S & _). rewrite (stale_not_fresh S). reflexivity.
    + destruct (HI L0) as [_ ->]. destruct (proof_fresh _ _ _ _); [|reflexivity].
      destruct (Z.eqb_spec (g_recovery g) 0) as [R|R].
      * apply Z.lt_neq, not_eq_sym, Z.eqb_neq in Hnow. rewrite Hnow. reflexivity.
      * apply Z.eqb_neq in R. rewrite R. reflexivity.
Qed.

(** well-formed op: clock readings are positive (the 0 sentinels mean "never") *)
Definition op_ok (o : op) : bool :=
  match o with
  | OSrtlaAck _ _ now | OEcho _ _ _ now | OSelect _ now _ _ => 0 <? now
  | _ => true
  end.

(** ops that leave the proof stamp of the link they target alone and do not reset it *)
Definition keeps_proof (o : op) : bool :=
  match o with
  | OReset _ => false
  | OSrtlaAck _ known _ => negb known
  | OEcho _ w ts now => negb (echo_ok w ts now)
  | _ => true
  end.

Lemma step_some : forall i s o l, nth_error s i = Some l ->
  exists l', nth_error (fst (step s o)) i = Some l'.
Proof.
  intros i s o l Hn. destruct (nth_error (fst (step s o)) i) eqn:E; [eauto|].
  apply nth_error_None in E. rewrite step_length in E. apply nth_error_None in E. congruence.
Qed.

(** what op [o] does to link [i]: a decision; a reset of this link; or, [KOther] for the monitor,
    an op that leaves the guard alone and, unless it is a new proof for this link (then one with
    a positive stamp, outside clause 8), the proof stamp too *)
Lemma step_view : forall i s o l l',
  nth_error s i = Some l -> nth_error (fst (step s o)) i = Some l' ->
  (exists last now cfg ins, o = OSelect last now cfg ins /\ decided now cfg l l') \/
  (o = OReset (Z.of_nat i) /\ l' = reset_link l) \/
  (kind_of (Z.of_nat i) o = KOther /\ lg l' = lg l /\
   (a_proof (la l') = a_proof (la l) \/
    (targets o i = true /\ keeps_proof o = false /\ cum_on (Z.of_nat i) o = false /\
     (op_ok o = true -> a_proof (la l') <> 0)))).
Proof.
  intros i s o l l' Hn Hn'. destruct (op_target o) as [j|] eqn:T.
  2:{ destruct o; try discriminate T. left.
      destruct (step_select_nth s last now cfg ins i l Hn) as (l2 & E & D).
      rewrite E in Hn'. injection Hn' as <-. eauto 10. }
  rewrite (step_env_nth s o i), Hn in Hn' by congruence. right.
  destruct (targets o i) eqn:Tg; injection Hn' as <-.
  - apply targets_spec in Tg. rewrite T in Tg. injection Tg as ->.
    destruct o; try discriminate T; injection T as ->; try (right; repeat split; left; reflexivity).
    + right. cbn [kind_of env_link cum_on keeps_proof op_ok]. rewrite Z.eqb_refl.
      destruct known, (0 <? a_logn (la l)); repeat split; try (left; reflexivity).
      right. cbn. repeat split. lia.
    + right. cbn [kind_of env_link cum_on keeps_proof op_ok]. rewrite Z.eqb_refl.
      destruct (echo_ok waiting ts now); repeat split; try (left; reflexivity).
      right. cbn. repeat split. lia.
    + left. split; reflexivity.
  - right. destruct o; try discriminate T; cbn [kind_of]; try (repeat split; left; reflexivity).
    destruct (Z.eqb_spec i0 (Z.of_nat i)) as [->|]; [|repeat split; left; reflexivity].
    rewrite (proj2 (targets_spec (OReset (Z.of_nat i)) i) eq_refl) in Tg. discriminate Tg.
Qed.

Lemma other_ok : forall rs l l',
  lg l' = lg l -> (a_proof (la l) <> 0 -> a_proof (la l') <> 0) -> Inv l rs ->
  snd (mon_step rs KOther l l') = 0%N /\ Inv l' (fst (mon_step rs KOther l l')).
Proof.
  intros rs l l' Hg Hp HI. unfold Inv in *. unfold mon_step, latched in *. rewrite Hg. cbn [fst snd].
  destruct (g_latched (lg l) =? 0) eqn:L; cbn [negb andb orb] in *.
  - split; [|discriminate]. apply first_clause_ok. cbn. destruct (g_pulled (lg l)); reflexivity.
  - destruct (HI eq_refl) as [P R]. split.
    + apply first_clause_ok. cbn [forallb snd]. specialize (Hp P).
      destruct (a_proof (la l') =? 0) eqn:E; [lia|]. cbn. destruct (g_pulled (lg l)); reflexivity.
    + intros _. auto.
Qed.

Lemma reset_ok : forall rs l,
  snd (mon_step rs KReset l (reset_link l)) = 0%N /\ Inv (reset_link l) (fst (mon_step rs KReset l (reset_link l))).
Proof.
  intros. unfold Inv. unfold mon_step, latched, reset_link. cbn. rewrite andb_false_r. cbn.
  split; [reflexivity | discriminate].
Qed.

Lemma step_mon : forall i s o rs l,
  nth_error s i = Some l -> op_ok o = true -> Inv l rs ->
  exists l', nth_error (fst (step s o)) i = Some l' /\
    snd (mon_step rs (kind_of (Z.of_nat i) o) l l') = 0%N /\
    Inv l' (fst (mon_step rs (kind_of (Z.of_nat i) o) l l')) /\
    (cum_on (Z.of_nat i) o = true -> a_proof (la l') = a_proof (la l)).
Proof.
  intros i s o rs l Hn Hok HI. destruct (step_some i s o l Hn) as (l' & E). exists l'. split; [exact E|].
  destruct (step_view i s o l l' Hn E) as [(last & now & cfg & ins & -> & D) | [[-> ->] | (K & G & P)]].
  - destruct (call_ok rs now cfg l l') as [C I]; [cbn in Hok; lia | exact D | exact HI |].
    split; [exact C | split; [exact I | discriminate]].
  - cbn [kind_of cum_on]. rewrite Z.eqb_refl. destruct (reset_ok rs l) as [C I].
    split; [exact C | split; [exact I | discriminate]].
  - rewrite K. destruct (other_ok rs l l' G) as [C I]; [| exact HI |].
    + destruct P as [-> | (_ & _ & _ & P)]; [trivial | intros _; exact (P Hok)].
    + split; [exact C | split; [exact I|]]. destruct P as [P | (_ & _ & -> & _)]; [intros _; exact P | discriminate].
Qed.

Lemma mon_link_ok : forall i ops s rs k,
  (forall l, nth_error s i = Some l -> Inv l rs) ->
  forallb op_ok ops = true ->
  mon_link i rs (trace s ops) k = (0, 0)%N.
Proof.
  induction ops as [|o t IH]; intros s rs k HI Hok; [reflexivity|].
  cbn [forallb] in Hok. apply andb_true_iff in Hok as [Ho Ht].
  cbn [trace]. destruct (step s o) as [s' r] eqn:St. cbn [mon_link t_pre t_post t_op].
  assert (S' : s' = fst (step s o)) by (rewrite St; reflexivity).
  destruct (nth_error s i) as [l|] eqn:Hn.
  - destruct (step_mon i s o rs l Hn Ho (HI l eq_refl)) as (l' & E & C & I' & CU).
    rewrite <- S' in E. rewrite E.
    destruct (mon_step rs (kind_of (Z.of_nat i) o) l l') as [rs' cl] eqn:M. cbn [fst snd] in *.
    subst cl. unfold cum_clause. cbn [N.eqb andb].
    assert (Q : cum_on (Z.of_nat i) o && negb (a_proof (la l') =? a_proof (la l)) = false).
    { destruct (cum_on (Z.of_nat i) o); [|reflexivity]. rewrite (CU eq_refl), Z.eqb_refl. reflexivity. }
    rewrite Q. cbn. apply IH; [|exact Ht]. intros l0 H0. rewrite E in H0. inversion H0; subst. exact I'.
  - assert (E : nth_error s' i = None).
    { apply nth_error_None. rewrite S', step_length. apply nth_error_None. exact Hn. }
    apply IH; [|exact Ht]. intros l0 H0. rewrite E in H0. discriminate.
Qed.

(** admissible initial states: what [Inv] with run start [None] asks (true of fresh links) *)
Definition good_link (l : link) : Prop :=
  latched l = true -> a_proof (la l) <> 0 /\ g_recovery (lg l) = 0.
Definition good_init (s : state) : Prop := Forall good_link s.

Lemma good_init_inv : forall s i l, good_init s -> nth_error s i = Some l -> Inv l None.
Proof.
  intros s i l G Hn L. unfold good_init in G. rewrite Forall_forall in G.
  destruct (G l (nth_error_In _ _ Hn) L) as [P R]. split; [exact P | rewrite R; reflexivity].
Qed.

Theorem release_cases : forall i s o l l',
  nth_error s i = Some l -> nth_error (fst (step s o)) i = Some l' ->
  g_latched (lg l) <> 0 -> g_latched (lg l') = 0 ->
  (exists j, o = OReset j) \/
  exists last now cfg ins, o = OSelect last now cfg ins /\
    (cf_guard cfg = false \/
     (proof_fresh (la l) (lx l) now (cf_ceil cfg) = true /\
      dwell (lx l) (cf_ceil cfg) <= ssub now (if g_recovery (lg l) =? 0 then now else g_recovery (lg l)))).
Proof.
  intros i s o l l' Hn Hn' L0 L1.
  destruct (step_view i s o l l' Hn Hn') as [(last & now & cfg & ins & -> & D) | [[J _] | (_ & G & _)]].
  - right. exists last, now, cfg, ins. split; [reflexivity | exact (gate_release (decided_guard D) L0 L1)].
  - left. eauto.
  - congruence.
Qed.

Theorem pull_release_cases : forall i s o l l',
  nth_error s i = Some l -> nth_error (fst (step s o)) i = Some l' ->
  g_pulled (lg l) = true -> g_pulled (lg l') = false ->
  (exists j, o = OReset j) \/
  exists last now cfg ins, o = OSelect last now cfg ins /\
    (cf_guard cfg = false \/ a_conn (la l) = false \/
     exists lr, a_lastrecv (la l) = Some lr /\ ssub now lr < pull_window (lx l) (cf_ceil cfg)).
Proof.
  intros i s o l l' Hn Hn' L0 L1.
  destruct (step_view i s o l l' Hn Hn') as [(last & now & cfg & ins & -> & D) | [[J _] | (_ & G & _)]].
  - right. exists last, now, cfg, ins. split; [reflexivity|].
    destruct (cf_guard cfg) eqn:G; [right | left; reflexivity].
    destruct (gate_pull (decided_guard D) G) as [P _]. rewrite P in L1.
    destruct (pull_step_release _ _ _ _ _ _ L0 L1) as [S | C]; [right | left; exact C].
    unfold spoke in S. destruct (a_lastrecv (la l)) as [lr|]; [|discriminate].
    exists lr. split; [reflexivity | apply Z.ltb_lt; exact S].
  - left. eauto.
  - congruence.
Qed.

Theorem pull_engage_cases : forall i s o l l',
  nth_error s i = Some l -> nth_error (fst (step s o)) i = Some l' ->
  g_pulled (lg l) = false -> g_pulled (lg l') = true ->
  exists last now cfg ins, o = OSelect last now cfg ins /\ cf_guard cfg = true /\
    a_conn (la l) = true /\ cf_min cfg <= a_inflight (la l) /\
    (exists lr, a_lastrecv (la l) = Some lr /\ pull_window (lx l) (cf_ceil cfg) <= ssub now lr) /\
    g_pulls (lg l') = g_pulls (lg l) + 1.
Proof.
  intros i s o l l' Hn Hn' L0 L1.
  destruct (step_view i s o l l' Hn Hn') as [(last & now & cfg & ins & -> & D) | [[_ ->] | (_ & G & _)]].
  - exists last, now, cfg, ins. pose proof (decided_guard D) as U.
    destruct (cf_guard cfg) eqn:G; [|destruct (gate_guard_off U G); congruence].
    destruct (gate_pull U G) as [P ->]. rewrite P in L1. destruct (pull_engage _ _ _ _ _ _ L0 L1) as [B ->].
    unfold briefly_silent in B.
    destruct (a_conn (la l)); [|discriminate]. cbn [negb orb] in B.
    destruct (Z.ltb_spec (a_inflight (la l)) (cf_min cfg)); [discriminate|].
    destruct (a_lastrecv (la l)) as [lr|]; [|discriminate].
    repeat split; try assumption. exists lr. split; [reflexivity | apply Z.leb_le; exact B].
  - cbn in L1. congruence.
  - congruence.
Qed.

(** never blind: an invariant of every history *)
Definition seen_proof (l : link) : Prop := latched l = true -> a_proof (la l) <> 0.

Lemma step_seen : forall s o, Forall seen_proof s -> op_ok o = true -> Forall seen_proof (fst (step s o)).
Proof.
  intros s o Hs Hok. apply Forall_forall. intros l' Hin. apply In_nth_error in Hin as [i Hn'].
  destruct (nth_error s i) as [l|] eqn:Hn.
  - rewrite Forall_forall in Hs. pose proof (Hs l (nth_error_In _ _ Hn)) as Sl.
    destruct (step_mon i s o (if g_recovery (lg l) =? 0 then None else Some (g_recovery (lg l))) l Hn Hok)
      as (l2 & E & _ & I).
    + intros L. split; [apply Sl; exact L | reflexivity].
    + rewrite E in Hn'. inversion Hn'; subst. intros L. apply I. exact L.
  - exfalso. apply nth_error_None in Hn. rewrite <- (step_length s o) in Hn.
    apply nth_error_None in Hn. congruence.
Qed.

(** release needs a dwell: the declarative reading of clause 3 *)
Definition rs_step (i : nat) (rs : option Z) (t : tstep) : option Z :=
  match nth_error (t_pre t) i, nth_error (t_post t) i with
  | Some pre, Some post => fst (mon_step rs (kind_of (Z.of_nat i) (t_op t)) pre post)
  | _, _ => rs
  end.

Definition fresh_call (i : nat) (t : tstep) (S : Z) : Prop :=
  exists last cfg ins l, t_op t = OSelect last S cfg ins /\ cf_guard cfg = true /\
    nth_error (t_pre t) i = Some l /\ proof_fresh (la l) (lx l) S (cf_ceil cfg) = true.

Definition passive (i : nat) (t : tstep) : Prop :=
  nth_error (t_pre t) i = None \/ nth_error (t_post t) i = None \/
  kind_of (Z.of_nat i) (t_op t) = KOther.

(** [a] ends with an uninterrupted run of fresh-proof decisions for link [i] that began at [S] *)
Definition fresh_run_from (i : nat) (a : list tstep) (S : Z) : Prop :=
  exists older first rest, a = older ++ first :: rest /\ fresh_call i first S /\
    Forall (fun u => (exists S', fresh_call i u S') \/ passive i u) rest.

Lemma fresh_run_extend : forall i a t S,
  fresh_run_from i a S -> (exists S', fresh_call i t S') \/ passive i t -> fresh_run_from i (a ++ [t]) S.
Proof.
  intros i a t S (older & first & rest & -> & F & R) H.
  exists older, first, (rest ++ [t]). split; [rewrite <- app_assoc; reflexivity|].
  split; [exact F|]. apply Forall_app. split; [exact R | constructor; [exact H | constructor]].
Qed.

Lemma kind_call_inv : forall i o now cfg, kind_of i o = KCall now cfg ->
  exists last ins, o = OSelect last now cfg ins.
Proof.
  intros i o now cfg H. destruct o; cbn in H; try discriminate.
  - destruct (i0 =? i); discriminate.
  - inversion H; subst. eauto.
Qed.

Lemma rs_char : forall i a S, fold_left (rs_step i) a None = Some S -> fresh_run_from i a S.
Proof.
  intros i a. induction a as [|t a IH] using rev_ind; intros S H; [discriminate|].
  rewrite fold_left_app in H. cbn [fold_left] in H.
  set (r := fold_left (rs_step i) a None) in *.
  unfold rs_step in H.
  destruct (nth_error (t_pre t) i) as [pre|] eqn:Hp.
  2:{ apply fresh_run_extend; [apply IH; exact H | right; left; exact Hp]. }
  destruct (nth_error (t_post t) i) as [post|] eqn:Hq.
  2:{ apply fresh_run_extend; [apply IH; exact H | right; right; left; exact Hq]. }
  destruct (kind_of (Z.of_nat i) (t_op t)) as [now cfg| |] eqn:K.
  - destruct (kind_call_inv _ _ _ _ K) as (last & ins & Eo).
    unfold mon_step in H. destruct (cf_guard cfg) eqn:G; [|cbn in H; discriminate].
    cbn [fst] in H. rewrite spec_fresh_ok in H.
    destruct (proof_fresh (la pre) (lx pre) now (cf_ceil cfg)) eqn:F; [|discriminate].
    assert (FC : fresh_call i t now) by (exists last, cfg, ins, pre; auto).
    destruct r as [s0|] eqn:R.
    + inversion H; subst s0. apply fresh_run_extend; [apply IH; reflexivity | left; eauto].
    + inversion H; subst. exists a, t, []. split; [reflexivity|]. split; [exact FC | constructor].
  - unfold mon_step in H. cbn in H. discriminate.
  - unfold mon_step in H. cbn [fst] in H. apply fresh_run_extend; [apply IH; exact H | right; right; right; exact K].
Qed.

Lemma cum_clause_select : forall i a b c d pre post cl, cum_clause i (OSelect a b c d) pre post cl = cl.
Proof. intros. unfold cum_clause. cbn [cum_on]. rewrite andb_false_r. reflexivity. Qed.

Lemma mon_link_app : forall i a rs b k,
  mon_link i rs (a ++ b) k = (0, 0)%N ->
  exists k', mon_link i (fold_left (rs_step i) a rs) b k' = (0, 0)%N.
Proof.
  induction a as [|t a IH]; intros rs b k H; [exists k; exact H|].
  cbn [app mon_link] in H. cbn [fold_left]. unfold rs_step.
  destruct (nth_error (t_pre t) i) as [pre|]; [|apply (IH _ _ _ H)].
  destruct (nth_error (t_post t) i) as [post|]; [|apply (IH _ _ _ H)].
  destruct (mon_step rs (kind_of (Z.of_nat i) (t_op t)) pre post) as [rs' cl] eqn:M.
  cbn zeta in H.
  destruct (N.eqb_spec (cum_clause i (t_op t) pre post cl) 0); [cbn [fst]; apply (IH _ _ _ H)|].
  inversion H. congruence.
Qed.

Theorem release_needs_dwell : forall s ops i pre t post last now cfg ins l l',
  good_init s -> forallb op_ok ops = true ->
  trace s ops = pre ++ t :: post ->
  t_op t = OSelect last now cfg ins -> cf_guard cfg = true ->
  nth_error (t_pre t) i = Some l -> nth_error (t_post t) i = Some l' ->
  latched l = true -> latched l' = false ->
  exists S, fresh_run_from i (pre ++ [t]) S /\ dwell (lx l) (cf_ceil cfg) <= ssub now S.
Proof.
  intros s ops i pre t post last now cfg ins l l' G W Tr Eo Gd Hl Hl' L0 L1.
  assert (M : mon_link i None (trace s ops) 0 = (0, 0)%N).
  { apply mon_link_ok; [|exact W]. intros l0 Hn. exact (good_init_inv s i l0 G Hn). }
  rewrite Tr in M. apply mon_link_app in M as [k' M].
  set (r := fold_left (rs_step i) pre None) in *.
  cbn [mon_link] in M. rewrite Hl, Hl', Eo in M. cbn [kind_of] in M.
  destruct (mon_step r (KCall now cfg) l l') as [rs' cl] eqn:MS. cbn zeta in M. rewrite cum_clause_select in M.
  destruct (N.eqb_spec cl 0) as [-> | Hc]; [|inversion M; congruence]. clear M.
  assert (RS : fold_left (rs_step i) (pre ++ [t]) None = rs').
  { rewrite fold_left_app. cbn [fold_left]. fold r. unfold rs_step. rewrite Hl, Hl', Eo. cbn [kind_of].
    rewrite MS. reflexivity. }
  unfold mon_step in MS. rewrite Gd, L0, L1 in MS. rewrite spec_dwell_ok in MS.
  inversion MS as [[R1 R2]]. clear MS.
  cbn [negb andb orb first_clause] in R2. rewrite R1 in R2.
  destruct rs' as [S|]; [|discriminate R2].
  exists S. split; [apply rs_char; exact RS|].
  apply Z.leb_le. destruct (dwell (lx l) (cf_ceil cfg) <=? ssub now S); [reflexivity | discriminate R2].
Qed.

(** an op at which link [i] earns no new proof after stamp [p]: a decision (guard on, clock not
    before the stamp, ceiling a u64) or an environment op that is not a new proof / reset for
    link [i] — in-flight may drain freely *)
Definition calm (i : nat) (p : Z) (o : op) : Prop :=
  match o with
  | OSelect _ now cfg _ => cf_guard cfg = true /\ p <= now /\ 0 < now /\ cf_ceil cfg <= u64_max
  | _ => targets o i = true -> keeps_proof o = true
  end.

(** latched on stamp [p], and any rejoin run in progress started no earlier than the stamp *)
Definition held (p : Z) (l : link) : Prop :=
  g_latched (lg l) <> 0 /\ a_proof (la l) = p /\ (g_recovery (lg l) = 0 \/ p <= g_recovery (lg l)).

Lemma eff_le_ceil : forall x ceil, eff_stale x ceil <= ceil.
Proof. intros. unfold eff_stale. destruct (x_rttpos x); lia. Qed.

Lemma eff_stale_bounds : forall x ceil,
  (x_rttpos x = false -> eff_stale x ceil = ceil) /\
  (ceil < 1000 -> eff_stale x ceil = ceil) /\
  (1000 <= ceil -> x_rttpos x = true -> 1000 <= eff_stale x ceil <= ceil) /\
  (x_rttpos x = true -> 0 <= x_rttms x -> 4 * x_rttms x <= u64_max ->
   eff_stale x ceil = Z.min (Z.max (4 * x_rttms x) 1000) ceil).
Proof.
  intros. unfold eff_stale, sat_mul_u64, sat_u64, clamp.
  change STALL_STALE_RTT_MULT with 4. change STALL_STALE_FLOOR_MS with 1000.
  destruct (x_rttpos x); repeat split; intros; try discriminate; lia.
Qed.

(** fresh means younger than the window, and the dwell is at least the window: a run that
    began no earlier than the stamp cannot span the dwell while that stamp is still fresh *)
Lemma fresh_short_of_dwell a x now ceil r :
  proof_fresh a x now ceil = true -> ceil <= u64_max -> a_proof a <= r ->
  ssub now r < dwell x ceil.
Proof.
  unfold proof_fresh, dwell, sat_mul_u64, sat_u64, clamp, ssub. change STALL_REJOIN_DWELL_MULT with 2.
  pose proof (eff_le_ceil x ceil). lia.
Qed.

Lemma decided_hold now cfg l l' p :
  decided now cfg l l' -> held p l ->
  cf_guard cfg = true -> p <= now -> cf_ceil cfg <= u64_max -> held p l'.
Proof.
  intros (A & _ & U & _) (L & P & R) G Hp Hc.
  assert (L1 : g_latched (lg l') <> 0).
  { intro L1. destruct (gate_release U L L1) as [|[F Dw]]; [congruence|].
    apply Z.le_ngt in Dw. apply Dw, (fresh_short_of_dwell _ _ _ _ _ F Hc).
    destruct (Z.eqb_spec (g_recovery (lg l)) 0); lia. }
  destruct (gate_keep U L1) as [_ K].
  split; [exact L1|]. split; [rewrite A; exact P|]. rewrite K.
  destruct (proof_fresh _ _ _ _); [right | left; reflexivity].
  destruct (Z.eqb_spec (g_recovery (lg l)) 0); lia.
Qed.

Lemma calm_step : forall i p s o l,
  nth_error s i = Some l -> held p l -> calm i p o ->
  exists l', nth_error (fst (step s o)) i = Some l' /\ held p l'.
Proof.
  intros i p s o l Hn H C. destruct (step_some i s o l Hn) as (l' & E). exists l'. split; [exact E|].
  destruct (step_view i s o l l' Hn E) as [(last & now & cfg & ins & -> & D) | [[-> _] | (K & G & [P | (Tg & Kp & _)])]].
  - destruct C as (Gd & Hp & _ & Hc). exact (decided_hold _ _ _ _ _ D H Gd Hp Hc).
  - discriminate C. apply targets_spec. reflexivity.
  - unfold held. rewrite G, P. exact H.
  - destruct o; try discriminate K; rewrite (C Tg) in Kp; discriminate Kp.
Qed.

Theorem single_proof_no_release : forall ops i p s l,
  nth_error s i = Some l -> held p l -> Forall (calm i p) ops ->
  exists l', nth_error (run s ops) i = Some l' /\ held p l'.
Proof.
  induction ops as [|o t IH]; intros i p s l Hn H C; [exists l; auto|].
  inversion C; subst. cbn [run].
  destruct (calm_step i p s o l Hn H H2) as (l1 & E & H1).
  apply (IH i p _ l1 E H1 H3).
Qed.

Lemma pull_window_spec : forall x ceil,
  pull_window x ceil =
  Z.min (if x_rttpos x then Z.max (sat_mul_u64 (x_rttms x) 2) 250 else 250) (eff_stale x ceil).
Proof. reflexivity. Qed.

Lemma dwell_twice : forall x ceil, 0 <= eff_stale x ceil -> 2 * eff_stale x ceil <= u64_max ->
  dwell x ceil = 2 * eff_stale x ceil.
Proof.
  intros. unfold dwell, sat_mul_u64, sat_u64, clamp. change STALL_REJOIN_DWELL_MULT with 2. lia.
Qed.
