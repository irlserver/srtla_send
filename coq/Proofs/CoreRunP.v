(** CoreRunP.v — the model's own trace as a case, and the generic lemma that lifts a
    per-step monitor fact to "check_with mon (model_case ...) = 0". *)
From Srtla Require Import Base Constants Conn Run_Core BaseP ConnP.

Fixpoint model_steps (s : state) (ops : list op) : list (op * obs) :=
  match ops with
  | [] => []
  | o :: t => let s' := step s o in (o, obs_state s') :: model_steps s' t
  end.
Definition model_case (ids : list Z) (ops : list op) : case :=
  {| c_ids := ids; c_init := obs_state (init ids); c_steps := model_steps (init ids) ops |}.

Lemma obs_eqb_refl o : obs_eqb o o = true.
Proof. apply list_eqb_refl. intros x. unfold lobs_eqb. rewrite !zlist_eqb_refl. reflexivity. Qed.

Lemma run_corr_model ops : forall s i, run_corr s (model_steps s ops) i = 0%N.
Proof.
  induction ops as [|o ops IH]; intros s i; cbn; [reflexivity|].
  rewrite obs_eqb_refl. apply IH.
Qed.

Lemma run_mon_model {M} (mon : monitor M) (J : M -> state -> Prop) ops :
  (forall m s o, J m s -> In o ops ->
     snd (m_step mon m o (obs_state s) (obs_state (step s o))) = 0%N /\
     J (fst (m_step mon m o (obs_state s) (obs_state (step s o)))) (step s o)) ->
  forall m s i, J m s -> run_mon mon m (obs_state s) (model_steps s ops) i = (0, 0)%N.
Proof.
  induction ops as [|o ops IH]; intros Hstep m s i HJ; cbn; [reflexivity|].
  destruct (Hstep m s o HJ (or_introl eq_refl)) as [H0 HJ'].
  destruct (m_step mon m o (obs_state s) (obs_state (step s o))) as [m' cl]. cbn in *. subst cl. cbn.
  apply IH; [|exact HJ']. intros m0 s0 o0 H1 H2. apply Hstep; [exact H1|right; exact H2].
Qed.

Theorem check_with_model {M} (mon : monitor M) (J : M -> state -> Prop) ids ops :
  snd (m_init mon ids (obs_state (init ids))) = 0%N ->
  J (fst (m_init mon ids (obs_state (init ids)))) (init ids) ->
  (forall m s o, J m s -> In o ops ->
     snd (m_step mon m o (obs_state s) (obs_state (step s o))) = 0%N /\
     J (fst (m_step mon m o (obs_state s) (obs_state (step s o)))) (step s o)) ->
  check_with mon (model_case ids ops) = 0%N.
Proof.
  intros H0 HJ Hstep. unfold check_with, model_case. cbn [c_ids c_init c_steps].
  rewrite obs_eqb_refl, run_corr_model.
  destruct (m_init mon ids (obs_state (init ids))) as [m0 cl0]. cbn in H0, HJ. subst cl0.
  cbn [N.eqb].
  pose proof (run_mon_model mon J ops Hstep m0 (init ids) 0%N HJ) as Hr.
  rewrite Hr. reflexivity.
Qed.

Lemma obs_length_step s o : length (obs_state (step s o)) = length (obs_state s).
Proof. unfold obs_state. rewrite !map_length. symmetry. exact (Forall2i_length _ _ _ _ (step_ltrans s o)). Qed.

Lemma run_inv (P : state -> Prop) (W : op -> Prop) : (forall s o, W o -> P s -> P (step s o)) ->
  forall ops s, Forall W ops -> P s -> P (run_from s ops).
Proof.
  intros Hs ops s H. revert s. unfold run_from.
  induction H as [|o ops Ho _ IH]; intros s HP; cbn; [exact HP|]. apply IH, Hs; assumption.
Qed.

Lemma forallb_obs_init (f : lobs -> bool) ids :
  (forall id, f (obs_link (link0 id)) = true) -> forallb f (obs_state (init ids)) = true.
Proof. intros H. unfold obs_state, init. cbn. rewrite map_map, forallb_forall. intros x Hx. apply in_map_iff in Hx as (id & <- & _). apply H. Qed.

Lemma nth_map_some {A B} (f : A -> B) d l i x : nth_error l i = Some x -> nth i (map f l) d = f x.
Proof. intros H. apply nth_error_nth, map_nth_error, H. Qed.

Lemma first_clause_all l : Forall (fun p : N * bool => snd p = true) l -> first_clause l = 0%N.
Proof. induction 1 as [|[n b] l H _ IH]; cbn in *; [reflexivity|]. rewrite H. exact IH. Qed.

Lemma forall_idx_map {A B} (R : nat -> A -> A -> Prop) (g : A -> B) (f : nat -> B -> B -> bool) i l l' :
  Forall2i R i l l' -> (forall j a b, R j a b -> f j (g a) (g b) = true) ->
  forall_idx f i (map g l) (map g l') = true.
Proof. intros H HR. induction H; cbn; [reflexivity|]. rewrite (HR _ _ _ H), IHForall2i. reflexivity. Qed.

Lemma obs_links_rel (R : nat -> link -> link -> Prop) i l l' :
  Forall2i R i l l' ->
  Forall2i (fun k x y => exists c c', R k c c' /\ x = obs_link c /\ y = obs_link c') i (map obs_link l) (map obs_link l').
Proof. induction 1; cbn; constructor; eauto. Qed.
