(** Props/C09.v — property C09 "Return path relays receiver traffic to the SRT client
    unmodified".  ONLY statements, their short proofs from the lemma files, constant
    obligations and non-vacuity examples.

    Reading guide.  [handle_uplink s id w now classic] is the model of the shell's
    uplink arm (handle_uplink_packet = process_uplink_packet + process_connection_events)
    on state [s] for a datagram [w] (bytes [bytes_of w]) received on the uplink whose
    conn_id is [id]; it returns (state', datagrams that reached the client socket, panicked).
    [spec_type b] is the big-endian u16 type of a datagram of >= 2 bytes (WireSpec).
    Every theorem holds for ALL byte lists / link states / histories. *)
From Srtla Require Import Base Constants Wire WireSpec WireP Conn Run_Core ConnP Uplink UplinkP Run_C09 C09P.

(** The type codes the property names, tied to the generated constants. *)
Theorem constants_ok_C09 :
  SRTLA_TYPE_REG2 = 37377 /\ SRTLA_TYPE_REG3 = 37378 /\ SRTLA_TYPE_REG_ERR = 37392 /\
  SRTLA_TYPE_REG_NGP = 37393 /\ SRTLA_TYPE_ACK = 37120 /\ SRTLA_TYPE_KEEPALIVE = 36864 /\
  SRT_TYPE_ACK = 32770 /\ SRT_TYPE_NAK = 32771 /\ MTU = 1500 /\
  (forall t, is_internal t = true <->
             t = 37393 \/ t = 37377 \/ t = 37378 \/ t = 37392 \/ t = 37120 \/ t = 36864).
Proof.
  repeat split; try reflexivity.
  - unfold is_internal, is_registration. intros H.
    repeat (apply Bool.orb_true_iff in H as [H|H]); apply Z.eqb_eq in H; rewrite H; cbv; tauto.
  - intros [->|[->|[->|[->|[->| ->]]]]]; reflexivity.
Qed.

(** Relay: with a client address known, a datagram of >= 2 bytes on a known uplink whose
    type is not SRTLA-internal reaches the client byte-for-byte, once or (SRT ACK: inline
    fast path + forward list) twice. *)
Theorem C09_relay : forall s id w now classic idx t,
  client s = true -> find_pos id (links (core s)) 0 = Some idx -> (idx < length (xs s))%nat ->
  spec_type (bytes_of w) = Some t -> is_internal t = false ->
  snd (fst (handle_uplink s id w now classic)) = [w] \/ snd (fst (handle_uplink s id w now classic)) = [w; w].
Proof. exact uplink_relay. Qed.

(** Unmodified: whatever reaches the client while a datagram is handled IS that datagram
    (any state, any bytes, client known or not). *)
Theorem C09_unmodified : forall s id w now classic,
  Forall (fun y => y = w) (snd (fst (handle_uplink s id w now classic))).
Proof. exact uplink_only_the_datagram. Qed.

(** SRTLA-internal datagrams (REG_NGP/REG2/REG3/REG_ERR, SRTLA ACK, keepalive) are never delivered. *)
Theorem C09_internal_never_relayed : forall s id w now classic t,
  spec_type (bytes_of w) = Some t -> is_internal t = true -> snd (fst (handle_uplink s id w now classic)) = [].
Proof. exact uplink_internal_never_relayed. Qed.

(** Before a client address is known nothing is delivered. *)
Theorem C09_no_client_no_delivery : forall s id w now classic,
  client s = false -> snd (fst (handle_uplink s id w now classic)) = [].
Proof.
  intros s id w now classic Hk.
  destruct (uplink_delivers s id w now classic) as [-> | ->]; [reflexivity|].
  rewrite out_of_kind, Hk. destruct (spec_type _); reflexivity.
Qed.

(** Totality of the dispatch: for every byte list and link state no decoder index is out of
    bounds and no loop runs out of fuel. *)
Theorem C09_dispatch_total : forall c x k w now,
  exists r, process_uplink_packet c x k w now = Ok r.
Proof. intros. eexists. apply process_uplink_packet_spec. Qed.

(** Never panics: in every history (arbitrary set-up ops and uplink datagrams from fresh
    links) no step reports a panic — neither a decoder bound nor an unchecked i32 overflow of
    the window arithmetic. *)
Theorem C09_total : forall ids ops, Forall (fun st => u_panic (snd st) = false) (h_steps (run ids ops)).
Proof. exact model_never_panics. Qed.

(** Liveness: every typed non-registration datagram sets last_received = now on its link. *)
Theorem C09_liveness_stamp : forall s id w now classic idx t,
  find_pos id (links (core s)) 0 = Some idx -> (idx < length (xs s))%nat ->
  spec_type (bytes_of w) = Some t -> is_registration t = false ->
  exists c', nth_error (links (core (fst (fst (handle_uplink s id w now classic))))) idx = Some c' /\
             last_recv c' = Some now.
Proof. exact uplink_liveness_stamp. Qed.

(** Datagrams of fewer than two bytes carry no type: nothing delivered, state unchanged
    (interpretation fixed in DESIGN.md section 8). *)
Theorem C09_short_datagram_noop : forall s id w now classic,
  blen (bytes_of w) < 2 -> handle_uplink s id w now classic = (s, [], false).
Proof. exact uplink_short_noop. Qed.

(** Delivery proof: handling one datagram changes a link's last_ack_or_rtt_sample_ms only to
    [now], and only (a) for an SRTLA ACK naming a number that was in that link's packet log
    and is retired from it, or (b) on the arrival link, for a keepalive echo accepted while the
    link was awaiting one (timestamp present, 0 < now - ts <= 10000). *)
Theorem C09_proof_only_earned : forall s id w now classic,
  Forall2i (proof_rel s id w now) 0 (links (core s)) (links (core (fst (fst (handle_uplink s id w now classic))))).
Proof. exact uplink_proof_only_earned. Qed.

(** The model's own trace of ANY history satisfies the monitor that ./check evaluates
    on the implementation's traces (clauses 1..6 of Run_C09.mon_uplink). *)
Theorem C09_monitor_holds : forall ids ops, ok_C09 (run ids ops) = true.
Proof.
  intros ids ops. unfold ok_C09, run. cbn [h_ids h_init h_steps].
  change false with (client (uinit ids)) at 1.
  rewrite (mon_run_model ids ops (uinit ids) [] false 0%N (uinit_inv ids)). reflexivity.
Qed.

(** ... and the case evaluator returns 0 on it (self-correspondence + monitor). *)
Theorem C09_model_self_check : forall ids ops, check_hist (run ids ops) = 0%N.
Proof.
  intros ids ops. unfold check_hist, run. cbn [h_ids h_init h_steps].
  rewrite uobs_eqb_refl, corr_run_model.
  change false with (client (uinit ids)) at 1.
  rewrite (mon_run_model ids ops (uinit ids) [] false 0%N (uinit_inv ids)). reflexivity.
Qed.

Definition fwd_of (ids : list Z) (ops : list uop) : list (list wd) := map (fun st => u_fwd (snd st)) (h_steps (run ids ops)).
Definition proofs_of (ids : list Z) (ops : list uop) : list (list Z) :=
  map (fun st => map o_proof (u_links (snd st))) (h_steps (run ids ops)).

(** data and unknown control types are relayed once, an SRT ACK twice, REG1-typed frames are not internal *)
Example C09_relay_reached :
  fwd_of [101] [SClient true; UUplink 101 (WFull [0; 1; 2; 3]) 1000 false;
                UUplink 101 (WFull [128; 5]) 1001 false;
                UUplink 101 (WFull ([128; 2] ++ repeat 0 18)) 1002 false;
                UUplink 101 (WFull [146; 0; 9]) 1003 false]
  = [[]; [WFull [0; 1; 2; 3]]; [WFull [128; 5]];
     [WFull ([128; 2] ++ repeat 0 18); WFull ([128; 2] ++ repeat 0 18)]; [WFull [146; 0; 9]]].
Proof. vm_compute. reflexivity. Qed.

(** internal frames are consumed; without a client nothing is delivered; one byte is no datagram type *)
Example C09_internal_reached :
  fwd_of [101] [UUplink 101 (WFull [0; 1; 2; 3]) 900 false; SClient true;
                UUplink 101 (WFull [146; 17]) 1000 false; UUplink 101 (WFull [146; 1; 7]) 1001 false;
                UUplink 101 (WFull [146; 2]) 1002 false; UUplink 101 (WFull [146; 16]) 1003 false;
                UUplink 101 (WFull [145; 0]) 1004 false; UUplink 101 (WFull [144; 0]) 1005 false;
                UUplink 101 (WFull [7]) 1006 false]
  = [[]; []; []; []; []; []; []; []; []].
Proof. vm_compute. reflexivity. Qed.

(** delivery proof: an unawaited echo does nothing; an awaited echo with rtt 0 or > 10000 does
    nothing; an awaited echo with rtt 10000 stamps; an SRTLA ACK stamps the holder (link 1),
    not the arrival link (link 0); an unearned SRTLA ACK stamps nobody *)
Example C09_proof_reached :
  proofs_of [101; 102]
    [SConn 0 true (Some 5); SConn 1 true (Some 5);
     UUplink 101 (WFull ([144; 0] ++ be_bytes 8 19000)) 20000 false;
     SWait 0 true; UUplink 101 (WFull ([144; 0] ++ be_bytes 8 20000)) 20000 false;
     SWait 0 true; UUplink 101 (WFull ([144; 0] ++ be_bytes 8 9999)) 20000 false;
     SWait 0 true; UUplink 101 (WFull ([144; 0] ++ be_bytes 8 10000)) 20000 false;
     SRegister 1 7 20001;
     UUplink 101 (WFull ([145; 0; 0; 0] ++ be_bytes 4 7)) 20002 false;
     UUplink 101 (WFull ([145; 0; 0; 0] ++ be_bytes 4 99)) 20003 false]
  = [[0; 0]; [0; 0]; [0; 0]; [0; 0]; [0; 0]; [0; 0]; [0; 0]; [0; 0]; [20000; 0]; [20000; 0];
     [20000; 20002]; [20000; 20002]].
Proof. vm_compute. reflexivity. Qed.

(** the liveness stamp moves on a data datagram and on an internal non-registration one,
    not on REG2 *)
Example C09_liveness_reached :
  map (fun st => map o_lastrecv (u_links (snd st)))
      (h_steps (run [101] [UUplink 101 (WFull [0; 1]) 1000 false; UUplink 101 (WFull [146; 1]) 1001 false;
                           UUplink 101 (WFull [145; 0]) 1002 false]))
  = [[1000]; [1000]; [1002]].
Proof. vm_compute. reflexivity. Qed.
