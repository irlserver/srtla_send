(** C12 "The stall guard is a routing penalty only; off means
    baseline".  ONLY statements, one-line proofs from the lemma files, non-vacuity examples.
    (The property text names no numeric literal, so there is no constants obligation.)

    Vocabulary (Model/Stall.v, StallSel.v, StallOps.v, Run/Run_C12.v):
    [select cfg last now ins ls] = [select_connection_idx]: the post-state of the links AND
    the decision; a [link] is split into [la] (liveness / accounting: connected flag, window,
    in-flight count, packet-log size, receive / send / keepalive stamps, proof stamp, NAK and
    burst counters, phase, reconnect state, opaque rest), [lx] (other decision inputs: queued
    count, weak / loss-degraded flags, CC target, bitrate, smoothed RTT), [lg] (guard-private:
    stall_gated, latch, rejoin run, lifetime counters, probe counter, silence pull) and [lc]
    (conn_timeout_ms, quality cache);  [forget_stall] erases ALL guard-private state;
    [ins] = per-link oracle inputs of the enhanced scorer (quality multiplier incl. libm exp,
    in-flight-cap verdict), functions of accounting state only. *)
From Coq Require Import Floats.
From Srtla Require Import Base Constants FConstants Stall StallSel StallOps Run_Stall Run_C12 StallP C12P.
Local Open Scope Z_scope.

(** Every history of the model satisfies the C12 monitor (view before = view after
    each decision; guard off => everything cleared and decision = history-free decision;
    counters monotone), for ALL op lists from ALL states. *)
Theorem C12_monitor_holds : forall ops s, ok_C12 (trace12 s ops) = true.
Proof. exact monitor12_holds. Qed.

(** Non-interference: whatever the guard decides, in both modes, from any state, a decision
    leaves every link's liveness / accounting state and other decision inputs untouched. *)
Theorem C12_noninterference : forall cfg last now ins ls,
  map la (fst (select cfg last now ins ls)) = map la ls /\
  map lx (fst (select cfg last now ins ls)) = map lx ls.
Proof. exact select_noninterference. Qed.

(** ... what it may write, link by link: guard-private state (as [gate_guard] of the link's
    own pre-state, up to the gated flag), the refreshed timeout, the quality cache. *)
Theorem C12_writes_only_guard_and_cache : forall cfg last now ins ls,
  Forall2 (decided now cfg) ls (fst (select cfg last now ins ls)).
Proof. exact select_decided. Qed.

Theorem C12_history_noninterference : forall ops s, forallb is_select ops = true ->
  map la (run s ops) = map la s /\ map lx (run s ops) = map lx s.
Proof. exact decisions_never_touch_view. Qed.

(** Guard off: flag, pull, latch and rejoin run are cleared on every link. *)
Theorem C12_off_clears : forall cfg last now ins ls, cf_guard cfg = false ->
  forallb cleared (fst (select cfg last now ins ls)) = true.
Proof. exact select_off_clears. Qed.

(** Guard off: the decision — and the whole post-state up to the erased history — is the one
    taken on the same links with no stall history at all. *)
Theorem C12_off_is_baseline : forall cfg last now ins ls, cf_guard cfg = false ->
  snd (select cfg last now ins (map forget_stall ls)) = snd (select cfg last now ins ls) /\
  fst (select cfg last now ins (map forget_stall ls)) = map forget_stall (fst (select cfg last now ins ls)).
Proof. exact select_off_is_baseline. Qed.

(** The lifetime counters never decrease and move by at most one per decision. *)
Theorem C12_counters_monotone : forall cfg last now ins ls,
  all2 counters_ok ls (fst (select cfg last now ins ls)) = true.
Proof. exact select_counters. Qed.

(** non-vacuity: link 0 has the better score but is latched; link 1 is healthy.  Guard on:
    the penalty routes to link 1.  Guard off: the decision is link 0 — the decision on the
    history-free links — and the latch is gone. *)
Definition lk (inflight latched : Z) : link :=
  mkL (mkA true 20000 inflight inflight (Some 99000) None None 90000 0 0 2 1000 1000 0 0 [])
      (mkG false latched 0 1 0 false 0) (mkX 0 false false 0 0%float false 0) (mkC 5000 1%float 0).
Definition two : list link := [lk 1 95000; lk 5 0].
Definition on_cfg (classic : bool) : config := mkCfg classic true true 32 3000 5000.
Definition off_cfg (classic : bool) : config := mkCfg classic true false 32 3000 5000.
Definition ins2 : list selin := [selin0; selin0].

Example penalty_matters :
  snd (select (on_cfg true) None 100000 ins2 two) = Some 1 /\
  snd (select (on_cfg false) None 100000 ins2 two) = Some 1 /\
  snd (select (off_cfg true) None 100000 ins2 two) = Some 0 /\
  snd (select (off_cfg false) None 100000 ins2 two) = Some 0 /\
  snd (select (off_cfg false) None 100000 ins2 (map forget_stall two)) = Some 0 /\
  map (fun l => g_latched (lg l)) (fst (select (off_cfg false) None 100000 ins2 two)) = [0; 0] /\
  map (fun l => g_latched (lg l)) (fst (select (on_cfg false) None 100000 ins2 two)) = [95000; 0].
Proof. repeat split; vm_compute; reflexivity. Qed.
