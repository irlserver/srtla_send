(** Props/C18.v — property C18 "Runtime control protocol is total, well-formed and takes
    effect".  Statements with their short proofs from the lemma files, constant
    obligations and non-vacuity examples.

    [spec_request], [spec_expect], [params_ok], [known_method], [spec_setting]
    (Model/ControlSpec.v) are the protocol as the property text and docs/CONTROL_PROTOCOL.md state
    it; [dispatch] / [dispatch_async] (Model/Control.v) are the model of src/control.rs;
    [response_of ent] / [config_after ent] select the entry point ([Stdin] = `dispatch`,
    [Socket ctx] = `dispatch_async` with/without a subscription context). *)
From Srtla Require Import Base Constants Json Control ControlSpec ControlConc JsonP DecodeP ControlP Run_C18 C18P ConcP.
Local Open Scope string_scope.
Local Open Scope Z_scope.

(** Constants the property names, tied to the generated file. *)
Theorem constants_ok_C18 :
  PARSE_ERROR = -32700 /\ INVALID_REQUEST = -32600 /\ METHOD_NOT_FOUND = -32601 /\
  INVALID_PARAMS = -32602 /\ INTERNAL_ERROR = -32603 /\
  CONN_TIMEOUT_MS_MIN = 1000 /\ CONN_TIMEOUT_MS_MAX = 60000 /\
  CONN_TIMEOUT_MS_MIN <= CONN_TIMEOUT_MS <= CONN_TIMEOUT_MS_MAX.
Proof. repeat split; (reflexivity || discriminate). Qed.

(** The serde-derived decoder (walk over members with per-field "seen" state; positional form)
    accepts exactly the declarative request shape, with the same version/method/params/id. *)
Theorem C18_request_shape : forall j, option_map req_tuple (decode_request j) = spec_request j.
Proof. exact decode_spec. Qed.

(** On every history (any constructor arguments, any lines, any stats / counter
    oracles, with or without a subscription context) the model's own trace satisfies the
    monitor — every clause of the property text, on both entry points. *)
Theorem C18_monitor_holds : forall i ctx ops, ok_C18 ctx (run i ctx ops) = true.
Proof.
  intros i ctx ops. unfold ok_C18, mon_C18, run. destruct (cfg_init_ok i) as (c & -> & Hr). cbn [tr_snap0 tr_steps].
  rewrite Hr. cbn [negb]. rewrite (run_from_ok ctx ops _ _ (inv_init c Hr)). reflexivity.
Qed.

(** Totality: the dispatcher returns (never the Panic outcome) for every line on either entry
    point; the constructor never panics either. *)
Theorem C18_total : forall ent c h e l, exists r, response_of ent c h e l = Done r.
Proof. intros. destruct (entry_conforms ent c h e l) as (r & H & _). exists r. exact H. Qed.
Theorem C18_init_total : forall i, exists c, cfg_init i = Some c /\ in_timeout_range c = true.
Proof. exact cfg_init_ok. Qed.

(** A request with an id gets exactly one response, echoing the id, with a result or the error
    code of its cause. *)
Theorem C18_exactly_one_response : forall ent c h e j v me p id,
  spec_request j = Some (v, me, p, Some id) ->
  exists b, response_of ent c h e (Parsed j) = Done (Some {| rs_id := id; rs_body := b |}) /\
    (v <> "2.0" -> b = BError (-32600)) /\
    (v = "2.0" -> known_method ent me = false -> b = BError (-32601)) /\
    (v = "2.0" -> known_method ent me = true -> params_ok me p = false -> b = BError (-32602)) /\
    (v = "2.0" -> known_method ent me = true -> params_ok me p = true ->
       (exists r, b = BResult r) \/ (me = "get_stats" /\ b = BError (-32603))).
Proof. exact exactly_one_response. Qed.

(** Unparsable text, and valid JSON that is not a request, get -32700 with a null id and change
    nothing; a blank line gets nothing. *)
Theorem C18_unparsable : forall ent c h e l,
  l <> Blank -> line_request l = None ->
  response_of ent c h e l = Done (Some {| rs_id := JNull; rs_body := BError (-32700) |}) /\
  config_after ent c h e l = c.
Proof.
  intros ent c h e l Hb Hl. destruct (entry_conforms ent c h e l) as (r & -> & Hc & ->).
  rewrite spec_expect_unfold, Hl in Hc. rewrite spec_setting_unfold, Hl.
  destruct l; [congruence| |]; cbn [conforms] in Hc; subst r; split; reflexivity.
Qed.
Theorem C18_blank : forall ent c h e,
  response_of ent c h e Blank = Done None /\ config_after ent c h e Blank = c.
Proof. destruct ent; split; reflexivity. Qed.

(** The rendered response is a well-formed JSON-RPC 2.0 object carrying that id and body. *)
Theorem C18_response_wellformed : forall r,
  parse_response (render r) = Some (rs_id r, rbody_of (rs_body r)).
Proof. exact parse_response_render. Qed.

(** A notification (no id, or id null) gets no response and is applied exactly like the same
    request carrying an id — configuration and subscription state. *)
Theorem C18_notification_applied : forall ent c h e j j' v me p id,
  spec_request j = Some (v, me, p, None) ->
  spec_request j' = Some (v, me, p, Some id) ->
  response_of ent c h e (Parsed j) = Done None /\
  config_after ent c h e (Parsed j) = config_after ent c h e (Parsed j') /\
  (forall ctx, snd (dispatch_async ctx c h e (Parsed j)) = snd (dispatch_async ctx c h e (Parsed j'))).
Proof. exact notification_applied. Qed.

(** The configuration after a line is the configuration before with the line's setting applied
    (nothing else ever changes it), on either entry point. *)
Theorem C18_effect : forall ent c h e l, config_after ent c h e l = apply_setting c (spec_setting l).
Proof. exact config_after_eq. Qed.

(** Takes effect: after ANY history both configurations are equal and show, per field, the last
    value successfully set (by request or notification); `get_status` answers with exactly that
    configuration, so it shows it too. *)
Theorem C18_set_visible : forall i ctx ops c,
  cfg_init i = Some c ->
  let s := final_state ctx (init_state c) ops in
  let t := tracked_of tracked_none ops in
  s_sync s = s_async s /\
  snap_shows t (s_sync s) = true /\
  (forall e, status_shows t (status_json (s_sync s) e) = true) /\
  (forall ent e j p id, spec_request j = Some ("2.0", "get_status", p, Some id) ->
     response_of ent (s_sync s) (s_hub s) e (Parsed j) =
       Done (Some {| rs_id := id; rs_body := BResult (status_json (s_sync s) e) |})).
Proof. exact set_visible. Qed.
Theorem C18_tracked_is_last_set : forall t ops1 o ops2 s,
  spec_setting (o_line o) = Some s -> Forall (untouched s) ops2 ->
  holds (tracked_of t (ops1 ++ o :: ops2)%list) s.
Proof.
  intros t ops1 o ops2 s Hs Hf. unfold tracked_of. rewrite fold_left_app. cbn [fold_left].
  apply holds_keep; [|exact Hf]. rewrite Hs. destruct s; reflexivity.
Qed.

(** The timeout is within 1000..60000 after every history, and set_conn_timeout stores and
    echoes the clamped value. *)
Theorem C18_timeout_clamped : forall i ctx ops,
  exists c, cfg_init i = Some c /\
    1000 <= c_timeout (s_sync (final_state ctx (init_state c) ops)) <= 60000 /\
    1000 <= c_timeout (s_async (final_state ctx (init_state c) ops)) <= 60000.
Proof.
  intros i ctx ops. destruct (cfg_init_ok i) as (c & Hc & _). exists c. split; [exact Hc|].
  destruct (inv_from_init i ctx ops c Hc) as (He & _ & Hrange).
  rewrite <- He. unfold in_timeout_range in Hrange. lia.
Qed.
Theorem C18_timeout_echoed : forall ent c h e j p id ms,
  spec_request j = Some ("2.0", "set_conn_timeout", p, id) ->
  vget p "ms" = Some (JInt ms) -> 0 <= ms < two64 ->
  let applied := Z.min 60000 (Z.max 1000 ms) in
  response_of ent c h e (Parsed j) =
    Done (option_map (fun i => {| rs_id := i; rs_body := BResult (JObj [("ms", JInt applied)]) |}) id) /\
  config_after ent c h e (Parsed j) = store_timeout c applied /\
  1000 <= applied <= 60000.
Proof. exact timeout_echoed. Qed.

(** stdin and socket: identical outcome (response, configuration) for every line that is not a
    subscription-method request on a subscription-capable socket; and never a different
    configuration effect for any line at all. *)
Theorem C18_sync_async_agree : forall ctx c h e l,
  (match line_request l with
   | Some (_, me, _, _) => ctx && is_sub_method me = false
   | None => True
   end) ->
  dispatch_async ctx c h e l = (dispatch c e l, h).
Proof. exact async_agrees. Qed.
Theorem C18_sync_async_same_config : forall ctx c h e l,
  snd (fst (dispatch_async ctx c h e l)) = snd (dispatch c e l).
Proof.
  intros. destruct (dispatch_async_conforms ctx c h e l) as (_ & _ & _ & ->).
  destruct (dispatch_conforms c e l) as (_ & _ & _ & ->). reflexivity.
Qed.

(** Concurrency (schedules): setters and snapshot readers as interleavings of single atomic
    stores / loads (Model/ControlConc.v). *)
Theorem C18_conc_sequential_is_dispatch : forall c e l,
  let '(m', loads) := exec_actions (mem_of c) (actions_of l) in
  snapshot_of m' = snd (dispatch c e l) /\ fst (dispatch c e l) = respond_conc e l loads.
Proof. exact conc_sequential. Qed.
(** any number of threads, each running any list of lines, under any schedule: the stored
    timeout and every timeout a snapshot loads are within 1000..60000 *)
Theorem C18_conc_timeout_clamped : forall (progs : list (list line_outcome)) sched m,
  1000 <= m_timeout m <= 60000 ->
  let '(m', evs) := run_sched m (map (fun p => List.concat (map actions_of p)) progs) sched in
  1000 <= m_timeout m' <= 60000 /\
  Forall (fun ev : event => match ev with (_, ALoad FTimeout, v) => 1000 <= v <= 60000 | _ => True end) evs.
Proof.
  intros progs sched m Hm. set (thr := map _ progs).
  destruct (run_sched_keeps timeout_in_range thr sched m) as [H1 H2]; [intros []; cbn; trivial| |].
  - apply Forall_map, Forall_forall. intros p _. apply program_ok.
  - destruct (run_sched m thr sched) as [m' evs]. split; [exact (H1 FTimeout)|exact H2].
Qed.
(** every load returns the latest value stored to that field before it (or the initial one) *)
Theorem C18_conc_loads_were_stored : forall thr sched m,
  let '(m', evs) := run_sched m thr sched in
  forall pre tid f v post, evs = (pre ++ (tid, ALoad f, v) :: post)%list ->
    v = last_store f pre (get_field m f).
Proof. exact conc_loads_were_stored. Qed.
Theorem C18_conc_loads_not_invented : forall thr sched m,
  let '(m', evs) := run_sched m thr sched in
  forall pre tid f v post, evs = (pre ++ (tid, ALoad f, v) :: post)%list ->
    v = get_field m f \/ exists tid' x, In (tid', AStore f v, x) pre.
Proof.
  intros thr sched m. pose proof (conc_loads_were_stored thr sched m) as H.
  destruct (run_sched m thr sched) as [m' evs]. intros pre tid f v post Hs.
  rewrite (H pre tid f v post Hs). apply last_store_in.
Qed.
(** the final content of a field is its last store in schedule order; other fields' stores commute *)
Theorem C18_conc_last_store_wins : forall thr sched m f,
  let '(m', evs) := run_sched m thr sched in get_field m' f = last_store f evs (get_field m f).
Proof. exact conc_last_store_wins. Qed.

Example C18_ex_positional :
  spec_request (JArr [JStr "2.0"; JStr "get_status"; JNull; JInt 7]) = Some ("2.0", "get_status", JNull, Some (JInt 7)).
Proof. reflexivity. Qed.
Example C18_ex_null_id_is_notification :
  spec_request (JObj [("jsonrpc", JStr "2.0"); ("method", JStr "set_mode"); ("id", JNull)]) =
  Some ("2.0", "set_mode", JNull, None).
Proof. reflexivity. Qed.
Example C18_ex_duplicate_id_unparsable :
  spec_request (JObj [("jsonrpc", JStr "2.0"); ("method", JStr "get_status"); ("id", JInt 1); ("id", JInt 2)]) = None.
Proof. reflexivity. Qed.
Example C18_ex_clamp_low :
  fst (dispatch cfg_new (Env NoStats None)
         (Parsed (JObj [("jsonrpc", JStr "2.0"); ("id", JInt 1); ("method", JStr "set_conn_timeout");
                        ("params", JObj [("ms", JInt 5)])]))) =
  Done (Some {| rs_id := JInt 1; rs_body := BResult (JObj [("ms", JInt 1000)]) |}).
Proof. reflexivity. Qed.
Example C18_ex_history :
  let set_to := fun z => Op (Env NoStats None)
     (Parsed (JObj [("jsonrpc", JStr "2.0"); ("method", JStr "set_conn_timeout"); ("params", JObj [("ms", JInt z)])])) in
  let junk := Op (Env NoStats None) Unparsable in
  c_timeout (s_async (final_state true (init_state cfg_new) [set_to 70000; junk; set_to 2500; junk])) = 2500 /\
  tk_timeout (tracked_of tracked_none [set_to 70000; junk; set_to 2500; junk]) = Some 2500.
Proof. split; reflexivity. Qed.
Example C18_ex_subscribe_differs :
  fst (dispatch cfg_new (Env NoStats None)
         (Parsed (JArr [JStr "2.0"; JStr "subscribe"; JObj [("topic", JStr "stats")]; JInt 1]))) =
  Done (Some {| rs_id := JInt 1; rs_body := BError (-32601) |}) /\
  fst (fst (dispatch_async true cfg_new hub_new (Env NoStats None)
         (Parsed (JArr [JStr "2.0"; JStr "subscribe"; JObj [("topic", JStr "stats")]; JInt 1])))) =
  Done (Some {| rs_id := JInt 1; rs_body := BResult (JObj [("subscription_id", JStr "sub-0")]) |}).
Proof. split; reflexivity. Qed.
Example C18_ex_interleaving :
  (* two setters and a reader: the reader's snapshot mixes values of different moments *)
  let line := fun me k v => Parsed (JObj [("jsonrpc", JStr "2.0"); ("method", JStr me); ("params", JObj [(k, v)])]) in
  let status := Parsed (JObj [("jsonrpc", JStr "2.0"); ("method", JStr "get_status"); ("id", JInt 1)]) in
  let thr := map (fun p => List.concat (map actions_of p))
                 [[line "set_conn_timeout" "ms" (JInt 7)]; [status]; [line "set_quality" "enabled" (JBool false)]] in
  map (fun ev : event => snd ev) (snd (run_sched (mem_of cfg_new) thr [1; 1; 2; 1; 1; 1; 0; 1]%nat)) =
  [1; 1; 0; 1; 32; 3000; 1000; 1000].
Proof. reflexivity. Qed.
Example C18_ex_monitor_rejects :
  (* the monitor is not trivially true: a status that hides a set value is flagged (clause 8) *)
  let line := Parsed (JObj [("jsonrpc", JStr "2.0"); ("id", JInt 1); ("method", JStr "get_status")]) in
  mon_result line {| tk_mode := Some Classic; tk_quality := None; tk_stall := None; tk_timeout := None |}
             (status_json cfg_new (Env NoStats None)) = 8%N.
Proof. reflexivity. Qed.
