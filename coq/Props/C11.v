(** C11 "Enhanced selection is stable, hysteretic and respects its gates".

    Statement (properties.jsonl): in enhanced mode re-running selection on an unchanged state returns
    the same uplink, and the scheduler leaves the previously selected uplink only if that uplink was
    skipped (ineligible, or over its in-flight cap while an unconstrained uplink exists) or another
    uplink's score is at least 1.10 times its score.  An uplink over its in-flight cap is never chosen
    while an unconstrained uplink exists, a weak or loss-degraded uplink competes at 2 % of its score
    while an unconstrained uplink exists, a warming uplink at 80 %, and all score factors stay finite
    and within their documented ranges (quality multiplier in [0.35, 1.1 x 1.03], soft-cap factor in
    [0.1, 1]).

    [table s now cfg exps] is the independent oracle of Run_C11: one entry per link of the
    gate-pass output, [None] for a link that is not ranked, [Some (spec_score ..)] otherwise. *)
From Coq Require Import ZArith List Bool Floats.
From Srtla Require Import Base Constants FConstants Select Run_Sel Run_C11 FloatP SelFloatP SelectP
     C11P SelViewP C11MonP SelIdemP C11ThmP C11RunP.
Import ListNotations.
Local Open Scope Z_scope.

(** the literals the property text names: 1.10, 2 %, 80 %, 0.35 = (1-0.5) x 0.7, 1.1 x 1.03, 0.1, 50 ms, 30 s *)
Lemma constants_ok_C11 :
  SWITCH_THRESHOLD = 0x1.199999999999ap+0%float /\ SWITCH_THRESHOLD_micro = 1100000 /\
  GATED_LINK_PENALTY = 0x1.47ae147ae147bp-6%float /\ GATED_LINK_PENALTY_micro = 20000 /\
  WARMING_WEIGHT = 0x1.999999999999ap-1%float /\
  Q_LO = 0x1.6666666666666p-2%float /\ Q_HI = (0x1.199999999999ap+0 * 0x1.07ae147ae147bp+0)%float /\
  PERFECT_CONNECTION_BONUS_micro = 1100000 /\ MAX_RTT_BONUS_micro = 1030000 /\
  MAX_PENALTY_micro = 500000 /\ NAK_BURST_PENALTY_micro = 700000 /\
  CC_SOFT_CAP_FLOOR = 0x1.999999999999ap-4%float /\ CC_SOFT_CAP_FLOOR_micro = 100000 /\
  QUALITY_CACHE_INTERVAL_MS = 50 /\ STARTUP_GRACE_PERIOD_MS = 30000.
Proof. repeat split; reflexivity. Qed.

(** quality multiplier in [0.35, 1.1 x 1.03] whatever the link state, for any exp value in [0,1] *)
Theorem C11_quality_range :
  forall c now e, exp_okb e = true ->
    (Q_LO <=? calc_quality c now e)%float = true /\ (calc_quality c now e <=? Q_HI)%float = true.
Proof. intros c now e He. apply q_range_iff. now apply calc_quality_range. Qed.

(** soft-cap factor in [0.1, 1] for every measured bitrate (NaN, infinities and negatives included) *)
Theorem C11_soft_cap_range :
  forall c, 0 <= l_cct c <= u64_max ->
    (CC_SOFT_CAP_FLOOR <=? cc_soft_cap_multiplier c)%float = true /\
    (cc_soft_cap_multiplier c <=? 1)%float = true.
Proof. exact soft_cap_range. Qed.

(** RTT bonus in [1, 1.03] for every smoothed RTT (NaN and infinities included) *)
Theorem C11_rtt_bonus_range :
  forall c, (1 <=? rtt_bonus c)%float = true /\ (rtt_bonus c <=? MAX_RTT_BONUS)%float = true.
Proof. exact rtt_bonus_range. Qed.

(** every score the loop computes on a well-formed link is a number (never NaN); for a connected link
    it is >= 0 (C03_score_above_floor) *)
Theorem C11_scores_not_nan :
  forall au quality now e c s c',
    wfl c -> exp_okb e = true -> score_link au quality now e c = Some (s, c') ->
    PrimFloat.is_nan s = false.
Proof. exact score_link_not_nan. Qed.

(** score = base x phase weight x quality x soft cap x gate, gate = 2 % iff an unconstrained link
    exists and the link is weak or loss-degraded, phase weight = 80 % iff warming; a link is ranked
    iff it is eligible and not (over its cap while an unconstrained link exists) *)
Theorem C11_score_is_spec :
  forall au quality now e c,
    option_map fst (score_link au quality now e c) =
    if spec_candidate au now c then Some (spec_score au quality now e c) else None.
Proof. exact score_link_is_spec. Qed.

Theorem C11_gate_is_two_percent_iff :
  forall au c, (if au && (l_weak c || l_lossdeg c) then SPEC_GATE else 1%float) =
               (if au && (l_weak c || l_lossdeg c) then GATED_LINK_PENALTY else 1%float).
Proof. reflexivity. Qed.

(** idempotence: the same call on the state the first call left behind (any exp values the second
    time) returns the same uplink and leaves that state unchanged; [0 < now] because 0 is the code's
    "never latched" time stamp *)
Theorem C11_idempotent :
  forall s last now cfg exps exps',
    0 < now -> c_mode cfg = Enhanced ->
    select (snd (select s last now cfg exps)) last now cfg exps' = select s last now cfg exps.
Proof. exact select_idempotent. Qed.

(** the previous uplink is left only if it was not ranked (ineligible, or over its cap while an
    unconstrained uplink exists) or some ranked uplink's score is not below 1.10 x its score *)
Theorem C11_leave_only_if :
  forall s l now cfg exps i,
    c_mode cfg = Enhanced -> fst (select s (Some l) now cfg exps) = Some i -> i <> l ->
    nths (table s now cfg exps) l = None \/
    exists sl sj, nths (table s now cfg exps) l = Some sl /\ In (Some sj) (table s now cfg exps) /\
                  (sj <? sl * SWITCH_THRESHOLD)%float = false.
Proof. exact leave_only_if. Qed.

(** an uplink over its in-flight cap is never chosen while an unconstrained uplink exists *)
Theorem C11_cap_excluded :
  forall s last now cfg exps i c,
    c_mode cfg = Enhanced -> fst (select s last now cfg exps) = Some i ->
    nth_error (gate_of s now cfg) i = Some c -> au_of s now cfg = true ->
    in_flight_cap_exceeded c = false.
Proof. exact cap_excluded. Qed.

(** whatever is chosen was ranked (eligible: not timed out, registered, not stall-gated) *)
Theorem C11_chosen_is_candidate :
  forall s last now cfg exps i,
    c_mode cfg = Enhanced -> fst (select s last now cfg exps) = Some i ->
    exists c, nth_error (gate_of s now cfg) i = Some c /\ spec_candidate (au_of s now cfg) now c = true.
Proof. exact chosen_is_candidate. Qed.

(** the chosen uplink maximises the oracle score, unless it is the previous uplink and every ranked
    score is below 1.10 x its score *)
Theorem C11_argmax :
  forall s last now cfg exps i si,
    c_mode cfg = Enhanced -> Forall wfl s -> forallb exp_okb exps = true ->
    fst (select s last now cfg exps) = Some i -> nths (table s now cfg exps) i = Some si ->
    is_max (table s now cfg exps) si = true \/
    (last = Some i /\ all_below (table s now cfg exps) si = true).
Proof. exact argmax. Qed.

(** The model's own traces satisfy the monitor, for every history. *)
Theorem C11_run_ok : forall ops, wf_opsb ops = true -> ok_C11 (run ops) = true.
Proof.
  intros ops H. unfold ok_C11.
  now rewrite (model_trace_ok [] (run ops) (run_from_trace ops [] (Forall_nil _) H) None 0%N I).
Qed.

Definition cfgE := Cfg Enhanced true true 32 3000 5000.
Definition mk (w inflight : Z) (weak : bool) (ph : phase) : link :=
  Lk true ph w inflight 0 (Some 999990) 0 900000 0 weak false 0 0 0 0 0 0 0 5000 false false 0 0 0 0 1 1000000.
(** hold inside the band (20 vs 19 in flight: 952 vs 1000 < 1.10 x 952), switch outside it (20 vs 17),
    weak link crushed to 2 % only while an unconstrained link exists, warming link at 80 % *)
Example C11_nonvacuous :
  fst (select [mk 20000 20 false PLive; mk 20000 19 false PLive] (Some 0%nat) 1000000 cfgE []) = Some 0%nat /\
  fst (select [mk 20000 20 false PLive; mk 20000 17 false PLive] (Some 0%nat) 1000000 cfgE []) = Some 1%nat /\
  fst (select [mk 20000 0 true PLive; mk 20000 40 false PLive] None 1000000 cfgE []) = Some 1%nat /\
  fst (select [mk 20000 0 true PLive; mk 20000 40 true PLive] None 1000000 cfgE []) = Some 0%nat /\
  fst (select [mk 20000 4 false PWarm; mk 20000 5 false PLive] None 1000000 cfgE []) = Some 1%nat /\
  table [mk 20000 4 false PWarm; mk 20000 0 true PLive; mk 20000 5 false PLive] 1000000 cfgE [] =
    [Some 3200%float; Some 400%float; Some 3333%float] /\
  wf_linkb (mk 20000 4 true PWarm) = true /\
  ok_C11 (run [OLoad [mk 20000 20 false PLive; mk 20000 19 true PDeg]; OSelect (Some 0%nat) 1000000 cfgE [];
               OSelect (Some 0%nat) 1000000 cfgE []; OUpd 1%nat (mk 20000 3 false PLive);
               OSelect (Some 0%nat) 1000040 cfgE []]) = true.
Proof. vm_compute. repeat split; reflexivity. Qed.
