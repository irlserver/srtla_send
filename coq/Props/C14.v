(** Props/C14.v — property C14 "Keepalives flow on every live uplink and RTT comes only
    from echoes".  Statements with their short proofs from the lemma files, the constant
    obligations and non-vacuity examples. *)
From Coq Require Import Floats.
From Srtla Require Import Base Constants FConstants Wire WireSpec WireP Rtt Keepalive RttP KeepaliveP
  Run_C14 C14P.
Local Open Scope Z_scope.

(** Literals the property text names, tied to the regenerated constants. *)
Theorem constants_ok_C14 :
  IDLE_TIME * 1000 = 1000 /\ IDLE_MS = 1000 /\ HOUSEKEEPING_INTERVAL_MS = 1000 /\ PERIOD = 1000 /\
  IDLE_MS + PERIOD - 1 <= 2 * PERIOD /\
  SRTLA_KEEPALIVE_EXT_LEN = 38 /\ SRTLA_TYPE_KEEPALIVE = 36864 /\
  SRTLA_KEEPALIVE_MAGIC = 49183 /\ SRTLA_KEEPALIVE_EXT_VERSION = 1 /\
  KA_RTT_CAP_MS = 10000 /\ RTT_REMEASURE_GAP_MS = 3000 /\ RTT_NEEDS_MEASUREMENT_GAP_MS = 3000 /\
  CONN_TIMEOUT_MS = 5000.
Proof. repeat split; try reflexivity. cbv. discriminate. Qed.

(** CADENCE (state level).  After a housekeeping iteration on a link that is connected and
    not timed out, the link's last keepalive is younger than IDLE_TIME (1 s); it is this
    tick's exactly when frames went out, and those frames are keepalives of this link. *)
Theorem C14_keepalive_fresh : forall l t rc now, live l now = true ->
  let '(fs, l') := tick_link l t rc now in
  exists k, l_last_ka l' = Some k /\ now - k < IDLE_MS /\
            ((fs <> [] /\ k = now /\ Forall (ka_frame_of l t now) fs) \/ (fs = [] /\ l' = l)).
Proof. exact keepalive_fresh. Qed.

(** CADENCE (two consecutive ticks, spacing D).  Link live at a tick at tau1 and at the next
    tick at tau2 <= tau1 + D; in between, datagrams / recovery marks can only keep or clear
    last_keepalive_sent.  Then the two most recent keepalives are < IDLE_MS + D apart
    (for D = one period: < two housekeeping periods). *)
Theorem C14_cadence : forall D l1 t1 rc1 tau1 l2 t2 rc2 tau2,
  0 <= D -> live l1 tau1 = true -> live l2 tau2 = true -> tau2 - tau1 <= D ->
  (l_last_ka l2 = l_last_ka (snd (tick_link l1 t1 rc1 tau1)) \/ l_last_ka l2 = None) ->
  exists k1 k2,
    l_last_ka (snd (tick_link l1 t1 rc1 tau1)) = Some k1 /\
    l_last_ka (snd (tick_link l2 t2 rc2 tau2)) = Some k2 /\
    tau1 - k1 < IDLE_MS /\ tau2 - k2 < IDLE_MS /\ k2 - k1 < IDLE_MS + D /\
    ((fst (tick_link l2 t2 rc2 tau2) = [] /\ k2 = k1) \/
     (fst (tick_link l2 t2 rc2 tau2) <> [] /\ k2 = tau2)).
Proof. exact cadence_two_ticks. Qed.
Theorem C14_between_ticks : forall l b now,
  l_last_ka (pkt_link l b now) = l_last_ka l /\ l_last_ka (mark_for_recovery l) = None.
Proof. intros. split; [apply pkt_link_last_ka|reflexivity]. Qed.

(** FRAME.  Every frame a housekeeping iteration emits is the REG2 of a reconnect or a
    38-byte extended keepalive: bytes 0..10 = the standard keepalive of the tick's clock,
    the receiver's parser reads back the link's window, in-flight, NAK count and bytes/s
    (with the Rust casts), built through the proved Wire round trip. *)
Theorem C14_frame : forall l t rc now, tele_ok t -> 0 <= now < two64 ->
  Forall (fun f => f = REG2_FRAME \/
            exists p, f = FBytes p /\ blen p = 38 /\ firstn 10 p = create_keepalive_packet now /\
              extract_keepalive_timestamp p = Ok (Some now) /\
              exists rtt_field,
                extract_keepalive_conn_info p =
                  Ok (Some [l_id l mod two32; t_window t; t_inflight t; rtt_field; of_i32 (t_nak t);
                            f_as_u32 (t_bps t / F_EIGHT)%float]))
         (fst (tick_link l t rc now)).
Proof. exact tick_frames. Qed.
Theorem C14_frame_packet : forall l t now, tele_ok t -> 0 <= now < two64 ->
  let p := fst (keepalive_packet l t now) in
  blen p = 38 /\ firstn 10 p = create_keepalive_packet now /\
  extract_keepalive_timestamp p = Ok (Some now) /\
  extract_keepalive_conn_info p = Ok (Some (ka_info l t)).
Proof. exact keepalive_packet_frame. Qed.

(** SAMPLING.  The estimator (last measurement time, Kalman state) moves on an uplink
    datagram only if a probe was outstanding, the datagram is a keepalive of >= 10 bytes and
    0 < now - echoed timestamp <= 10 s; the sample is exactly that difference.  A returned
    sample obeys the filter; a keepalive handled while waiting always clears the flag;
    ticks and recovery marks never take a sample (they keep or reset the estimator). *)
Theorem C14_sample_filter : forall l b now, bytes_ok b ->
  rtt_core (l_rtt (pkt_link l b now)) <> rtt_core (l_rtt l) ->
  r_waiting (l_rtt l) = true /\ spec_type b = Some SRTLA_TYPE_KEEPALIVE /\ 10 <= blen b /\
  exists ts, spec_ka_ts b = Some ts /\ 0 < now - ts <= 10000 /\
    l_rtt (pkt_link l b now) = set_waiting (update_estimate (l_rtt l) (now - ts) now) false /\
    l_proof (pkt_link l b now) = now.
Proof. exact pkt_link_sample. Qed.
Theorem C14_sample_value : forall r b now v,
  snd (handle_keepalive_response r b now) = Some v ->
  r_waiting r = true /\ exists ts, ka_ts b = Some ts /\ v = now - ts /\ 0 < v <= KA_RTT_CAP_MS.
Proof.
  intros r b now v. pose proof (hkr_cases r b now) as H.
  destruct (handle_keepalive_response r b now) as [r' s]. cbn [snd]. intros ->.
  destruct H as [(H & _)|(ts & [= ->] & Hw & Hts & Hr & _)]; [discriminate|].
  split; [exact Hw|]. exists ts. unfold ssub. repeat split; auto; lia.
Qed.
Theorem C14_waiting_cleared : forall r b now,
  r_waiting r = true -> r_waiting (fst (handle_keepalive_response r b now)) = false.
Proof.
  intros r b now Hw. pose proof (hkr_cases r b now) as H.
  destruct (handle_keepalive_response r b now) as [r' s]. cbn [fst].
  destruct H as [(_ & _ & H & _)|(ts & _ & _ & _ & _ & ->)]; [auto|reflexivity].
Qed.
Theorem C14_no_sample_elsewhere : forall l t rc now,
  let l' := snd (tick_link l t rc now) in
  (l_rtt l' = rtt_default \/ rtt_core (l_rtt l') = rtt_core (l_rtt l)) /\
  rtt_core (l_rtt (mark_for_recovery l)) = rtt_core (l_rtt l).
Proof. intros. split; [apply tick_link_core|apply mark_core]. Qed.

(** SIGN.  get_smooth_rtt_ms is never NaN and never negative, for EVERY float state of the
    filter (including NaN / infinities / negative overshoot); it is finite when the Kalman
    value is. *)
Theorem C14_srtt_nonneg : forall l,
  f_is_nan (get_smooth_rtt_ms l) = false /\ (0 <=? get_smooth_rtt_ms l)%float = true /\
  (f_is_inf (kx (r_k (l_rtt l))) = false -> f_is_inf (get_smooth_rtt_ms l) = false).
Proof.
  intros l. unfold get_smooth_rtt_ms. destruct (f_max0_ok (kx (r_k (l_rtt l)))) as [H1 H2].
  repeat split; auto. apply f_max0_finite.
Qed.

(** Every trace of the model satisfies the monitor (the property text as a
    boolean over observable traces), for all link sets, start times and op lists whose
    values inhabit their Rust types.  The finiteness clause is the one part carried by a
    hypothesis: [finite_run] = the Kalman value is not infinite in any state of the run. *)
Theorem C14_monitor_partial : forall ids t0 ops, wf_opsb ops = true ->
  ok_C14_nf (length ids) ops (run ids t0 ops) = true.
Proof.
  intros ids t0 ops Hwf. unfold ok_C14_nf, mon_C14.
  destruct (monitor_general PERIOD (2 * PERIOD) ids t0 ops period_bound Hwf) as [[H|H] _]; rewrite H; reflexivity.
Qed.
Theorem C14_monitor : forall ids t0 ops, wf_opsb ops = true -> finite_run ids t0 ops ->
  ok_C14 (length ids) ops (run ids t0 ops) = true.
Proof.
  intros ids t0 ops Hwf Hfin. unfold ok_C14, mon_C14.
  rewrite (proj2 (monitor_general PERIOD (2 * PERIOD) ids t0 ops period_bound Hwf) Hfin). reflexivity.
Qed.
(** the same for any tick spacing D: previous keepalive at most IDLE_MS + D - 1 old *)
Theorem C14_cadence_general : forall D bound ids t0 ops,
  IDLE_MS + D - 1 <= bound -> wf_opsb ops = true ->
  let c := fst (mon_run D bound (repeat m0 (length ids)) ops (run ids t0 ops) 0) in
  (c = 0%N \/ c = 5%N) /\ (finite_run ids t0 ops -> c = 0%N).
Proof. exact monitor_general. Qed.

Definition ex_ka (ts : Z) : list Z := create_keepalive_packet ts.
Definition ex_tele : tele := {| t_window := 20000; t_inflight := 3; t_nak := 1; t_bps := 8000000 |}.
Definition ex_ops : list op :=
  [ OPkt 0 [146; 2] 1000010;                       (* REG3: link registers *)
    OTick 1001000 [ex_tele] [true];                (* first keepalive, probe armed *)
    OPkt 0 (ex_ka 1001000) 1001045;                (* timely echo: sample 45 ms *)
    OTick 1002000 [ex_tele] [true];                (* keepalive, 1 s later *)
    OPkt 0 (ex_ka 1002000) 1002045;                (* echo with no probe outstanding *)
    OTick 1003000 [ex_tele] [true];
    OTick 1003500 [ex_tele] [true];                (* half a period: nothing due *)
    OMark 0;                                        (* link reset *)
    OTick 1004000 [ex_tele] [true];                (* timed out: reconnect, REG2 *)
    OPkt 0 [146; 2] 1004020;
    OTick 1005000 [ex_tele] [true];                (* live again: keepalive at once *)
    OEnd ].

Definition count_ka (bs : list obs) : Z :=
  fold_left (fun n b => match b with
     | BTick per => fold_left (fun n tb => n + blen (filter frame_is_ka (tb_frames tb))) per n
     | _ => n end) bs 0.
Definition count_samples (bs : list obs) : Z :=
  fold_left (fun n b => match b with
     | BPkt pre prek post postk _ => if sample_taken pre prek post postk then n + 1 else n
     | _ => n end) bs 0.

Example C14_example_run :
  wf_opsb ex_ops = true /\ ok_C14 1 ex_ops (run [7] 1000000 ex_ops) = true /\
  count_ka (run [7] 1000000 ex_ops) = 4 /\ count_samples (run [7] 1000000 ex_ops) = 1.
Proof. vm_compute. repeat split. Qed.
Example C14_example_finite : finite_run [7] 1000000 ex_ops.
Proof. apply finite_fromb_ok. vm_compute. reflexivity. Qed.
Example C14_example_live :
  live (snd (tick_link (pkt_link (new_registering 7 1000000) [146; 2] 1000010) ex_tele true 1001000))
       1002000 = true.
Proof. vm_compute. reflexivity. Qed.
(** the Kalman filter does overshoot below zero on a sharp high->low transition of genuine
    samples, so the clamp in get_smooth_rtt_ms is reached *)
Example C14_overshoot_reached :
  let k := fold_left (fun k m => kalman_update k (f_of_Z m)) [10000; 10000; 10000; 1; 1; 1; 1] kalman_new in
  (kx k <? 0)%float = true /\ f_max0 (kx k) = 0%float /\ f_max0 nan = 0%float.
Proof. vm_compute. repeat split. Qed.
(** a late echo (10 001 ms) and a zero-RTT echo are rejected, 10 000 ms is accepted *)
Example C14_filter_boundaries :
  let r := record_keepalive_sent rtt_default 5000 in
  snd (handle_keepalive_response r (ex_ka 5000) 15000) = Some 10000 /\
  snd (handle_keepalive_response r (ex_ka 5000) 15001) = None /\
  snd (handle_keepalive_response r (ex_ka 5000) 5000) = None /\
  snd (handle_keepalive_response r (ex_ka 6000) 5500) = None /\
  snd (handle_keepalive_response rtt_default (ex_ka 5000) 5045) = None.
Proof. vm_compute. repeat split. Qed.
