(** C03 "No blackout: a usable uplink always gets the packet".

    Statement (properties.jsonl): whenever at least one uplink is usable (registered, connected
    and not timed out), the scheduler returns an uplink for the packet instead of dropping it,
    regardless of how many admission gates are engaged; the stall guard, the silence pull, the
    weak / loss-degraded gates and the in-flight cap can never combine to exclude the last usable
    uplink, in either scheduling mode and with any runtime settings.

    Model: Model/Select.v ([select] = apply_stall_gate + classic / enhanced selector, as in the
    Rust code after the `fix:` commit that makes [any_healthy] / [any_unconstrained] require
    [connected]).  Premises: [wfl] (window in [0, i32::MAX] — C06 keeps it in [1000, 60000] —,
    queue length >= 0, CC target a u64, cached quality multiplier in its documented range) and
    [exp_okb] (libm exp in [0,1]); both are evaluated by the monitor on every implementation
    trace, and [wfl] is an invariant of [select] (C03_wf_preserved). *)
From Coq Require Import ZArith List Bool Floats.
From Srtla Require Import Base Constants FConstants Select Run_Sel Run_C03 SelFloatP SelectP C03P.
Import ListNotations.
Local Open Scope Z_scope.

(** literals the argument rests on: every score factor is strictly positive and the selection
    floor is -1 (classic: [best_score = -1]; enhanced: [-1.0]) *)
Lemma constants_ok_C03 :
  (0 <? GATED_LINK_PENALTY)%float = true /\ (0 <? CC_SOFT_CAP_FLOOR)%float = true /\
  (0 <? WARMING_WEIGHT)%float = true /\ (0 <? Q_LO)%float = true /\ (Q_LO <=? 1)%float = true /\
  (1 <=? Q_HI)%float = true /\ (Q_LO <=? STARTUP_NAK_PENALTY)%float = true /\
  (PERFECT_CONNECTION_BONUS <=? Q_HI)%float = true.
Proof. repeat split; reflexivity. Qed.

(** Full statement. *)
Theorem C03_no_blackout :
  forall ls last now cfg exps,
    Forall wfl ls -> forallb exp_okb exps = true ->
    (exists c, In c ls /\ usable_spec now (c_timeout cfg) c = true) ->
    exists i, fst (select ls last now cfg exps) = Some i /\ (i < length ls)%nat.
Proof.
  intros ls last now cfg exps Hw He (c & Hin & Hu).
  apply select_no_blackout; auto. apply existsb_exists. now exists c.
Qed.

(** The stall guard and the silence pull never gate the last usable uplink: after the gate pass
    some connected, registered, not-timed-out link is un-gated. *)
Theorem C03_stall_gate_spares_one :
  forall ls now cfg,
    existsb (usable_spec now (c_timeout cfg)) ls = true ->
    existsb (ok_link now) (apply_stall_gate ls now cfg) = true.
Proof. exact gate_spares_one. Qed.

(** Weak / loss-degraded / soft-cap / phase de-rating only scale a score; the score of a connected
    link that is scored at all stays >= 0, strictly above the selection floor. *)
Theorem C03_score_above_floor :
  forall au quality now e c s c',
    wfl c -> exp_okb e = true -> l_conn c = true ->
    score_link au quality now e c = Some (s, c') -> ((-1)%float <? s)%float = true.
Proof. exact score_link_above_floor. Qed.

(** The in-flight cap (and the 2 % crush) apply only while an unconstrained link exists, and that
    link is itself scored: some link of the pool is always scorable. *)
Theorem C03_cap_never_empties_pool :
  forall ls now quality,
    Forall wfl ls -> existsb (ok_link now) ls = true ->
    exists c, In c ls /\ scorable (existsb (unconstrained now) ls) quality now c.
Proof. exact scorable_exists. Qed.

(** The premises are kept by every select (so they hold along every history). *)
Theorem C03_wf_preserved :
  forall ls last now cfg exps,
    forallb exp_okb exps = true -> Forall wfl ls -> Forall wfl (snd (select ls last now cfg exps)).
Proof. exact select_wf. Qed.

(** A select writes only latch / pull / gate / timeout / cache fields. *)
Theorem C03_select_writes_only_hidden :
  forall ls last now cfg exps,
    forallb exp_okb exps = true ->
    Forall2 (fun c c' => pv c' = pv c) ls (snd (select ls last now cfg exps)).
Proof.
  intros ls last now cfg exps _. apply select_pv.
Qed.

(** The model's own traces satisfy the monitor, for every history of loads, external
    updates and selects. *)
Theorem C03_run_ok : forall ops, wf_opsb ops = true -> ok_C03 (run ops) = true.
Proof.
  intros ops H. unfold ok_C03.
  now rewrite (model_trace_ok [] (run ops) (run_from_trace ops [] (Forall_nil _) H)).
Qed.

Definition cfgE := Cfg Enhanced true true 32 3000 5000.
Definition cfgC := Cfg Classic true true 32 3000 5000.
(** DESIGN §8-F2 (found by this check, fixed in /repo by `fix:` b87e25b): link 0 usable but stalled
    (100 in flight, delivery proof 10 s old), link 1 disconnected by REG_ERR yet still Live and
    recently heard.  Before the fix both modes returned None; kept as a regression case. *)
Definition f2_a := Lk true PLive 20000 100 0 (Some 999990) 990000 940000 0 false false 0 0 0 0 0 0 0 5000 false false 0 0 0 0 1 0.
Definition f2_b := Lk false PLive 20000 0 0 (Some 999990) 0 940000 0 false false 0 0 0 0 0 0 0 5000 false false 0 0 0 0 1 0.
Example C03_f2_witness_now_served :
  fst (select [f2_a; f2_b] None 1000000 cfgC []) = Some 0%nat /\
  fst (select [f2_a; f2_b] None 1000000 cfgE []) = Some 0%nat /\
  l_latched (hd f2_b (snd (select [f2_a; f2_b] None 1000000 cfgE []))) = 1000000 /\
  l_gated (hd f2_b (snd (select [f2_a; f2_b] None 1000000 cfgE []))) = false.
Proof. vm_compute. repeat split; reflexivity. Qed.

(** non-vacuity: the premises are satisfiable together with every gate engaged on the only usable
    link (latched, pulled, weak, loss-degraded, over its in-flight cap, soft cap saturated). *)
Definition all_gates := Lk true PWarm 1000 500 3 (Some 999000) 990000 900000 0 true true 1000000
  0x1.e848p+19 300 20 7 999990 6 5000 true true 2 995000 0 1 1 0.
Example C03_nonvacuous :
  wf_linkb all_gates = true /\ usable_spec 1000000 5000 all_gates = true /\
  in_flight_cap_exceeded all_gates = true /\
  fst (select [all_gates] None 1000000 cfgE [0x1p-1%float]) = Some 0%nat /\
  fst (select [all_gates] (Some 3%nat) 1000000 cfgC []) = Some 0%nat /\
  ok_C03 (run [OLoad [all_gates; f2_b]; OSelect None 1000000 cfgE [1%float; 1%float];
               OUpd 0%nat f2_a; OSelect (Some 0%nat) 1000300 cfgC []]) = true.
Proof. vm_compute. repeat split; reflexivity. Qed.

(** the window premise is needed: with a negative window (which C06 excludes) the classic selector,
    whose floor is -1, drops the packet although the link is usable *)
Definition neg_window := Lk true PLive (-1) 0 0 (Some 999990) 0 940000 0 false false 0 0 0 0 0 0 0 5000 false false 0 0 0 0 1 0.
Example C03_without_window_premise_refuted :
  usable_spec 1000000 5000 neg_window = true /\ wf_linkb neg_window = false /\
  fst (select [neg_window] None 1000000 cfgC []) = None.
Proof. vm_compute. repeat split; reflexivity. Qed.
