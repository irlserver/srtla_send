(** Props/C07.v — property C07 "Registration handshake follows the two-phase SRTLA protocol".
    ONLY statements with short proofs from Proofs/C07P.v, constant obligations,
    the refuted statement of the code before the fix, and non-vacuity examples.

    Model: Model/Reg.v ([step true] = the code as it is now).  Events: REG_NGP / REG2 / REG3 /
    REG_ERR arriving on an uplink, housekeeping passes; [wf_ops n ops] only says that uplink
    indices are < n and clock values are >= 0.  No bound on the number of events, uplinks,
    or on time. *)
From Srtla Require Import Base Constants Reg Run_C07 RegP C07P.

(** Constants the property text names, tied to the generated file. *)
Theorem constants_ok_C07 :
  REG2_TIMEOUT = 4 /\ REG2_WAIT_MS = 4000 /\ REG2_WAIT_MS = TEXT_TIMEOUT_MS /\ REG3_TIMEOUT = 4 /\ SRTLA_ID_LEN = 256 /\
  REG2_MIN_LEN = 258 /\ SRTLA_TYPE_REG1_LEN = 258 /\ SRTLA_TYPE_REG2_LEN = 258 /\
  REG1_RETRY_MS = 1000 /\ PROBE_WAIT_MS = 2000 /\
  SRTLA_TYPE_REG1 = 37376 /\ SRTLA_TYPE_REG2 = 37377 /\ SRTLA_TYPE_REG3 = 37378 /\
  SRTLA_TYPE_REG_ERR = 37392 /\ SRTLA_TYPE_REG_NGP = 37393.
Proof. repeat split; reflexivity. Qed.

(** On every history the model's own trace satisfies the monitor [ok_C07], i.e. all
    nine clauses of Run_C07.mon_step at every step: single outstanding REG1; driver/immediate
    REG1 only while no uplink is connected; REG2 accepted only from the REG1 uplink with a
    full-length id which is then adopted; exactly one broadcast round per adoption; every
    REG1/REG2 carries the adopted id; connected only by REG3 on that uplink; REG_ERR cancels;
    4 s timeout abandons; a new attempt can then start. *)
Theorem C07_monitor_holds : forall n id0 pid probe ops,
  wf_ops n ops = true -> ok_C07 n ops (run true n id0 pid probe ops) = true.
Proof. exact model_ok. Qed.

(** The statements below are about any state [s] reachable from start-up (with or without the
    probing round) and any next event [o]; [s'], [out] = state and packets after it. *)

(** A REG1 is never sent while another uplink is awaited: it is the only REG1 of its step, it
    finds nothing awaited or its own uplink awaited, leaves its uplink awaited, and arms the
    deadline REG2_TIMEOUT s ahead. *)
Theorem C07_single_outstanding : forall n, 0 <= n -> forall s, reachable n s -> forall o, wf_op n o ->
  forall p, In p (snd (step true s o)) -> pk_kind p = K_REG1 ->
  reg1_of (snd (step true s o)) = [pk_dst p] /\ 0 <= pk_dst p < n /\
  (r_pending (s_reg s) = None \/ r_pending (s_reg s) = Some (pk_dst p)) /\
  r_pending (s_reg (fst (step true s o))) = Some (pk_dst p) /\
  r_ptimeout (s_reg (fst (step true s o))) = op_now o + REG2_WAIT_MS.
Proof.
  intros n Hn s R o W p Hin Hk.
  destruct (step_reg1 (reach_spec n Hn s R o W) p Hin Hk) as (H1 & H2 & H3 & H4 & [[_ H]|[H _]]); auto.
Qed.

(** A REG1 that is not housekeeping's re-transmission to the already awaited uplink — i.e. one
    from the driver or from the immediate answer to REG_NGP — is only sent while no uplink is
    connected. *)
Theorem C07_reg1_only_unregistered : forall n, 0 <= n -> forall s, reachable n s -> forall o, wf_op n o ->
  forall p, In p (snd (step true s o)) -> pk_kind p = K_REG1 ->
  (is_tick o = true /\ r_pending (s_reg s) = Some (pk_dst p)) \/
  none_conn (s_conn (fst (step true s o))).
Proof.
  intros n Hn s R o W p Hin Hk.
  destruct (step_reg1 (reach_spec n Hn s R o W) p Hin Hk) as (_ & _ & _ & _ & [H|[_ H]]); auto.
Qed.

(** what the fix restored: the cached count is never 0 while an uplink is connected *)
Theorem C07_active_zero_means_none_connected : forall n, 0 <= n -> forall s, reachable n s ->
  r_active (s_reg s) = 0 -> none_conn (s_conn s).
Proof. intros n Hn s R. exact (inv_active (reachable_inv n s Hn R)). Qed.

(** The id changes only when a REG2 of at least 2+256 bytes arrives on the awaited uplink; it
    becomes the id carried, the wait ends, one broadcast is armed, the REG1 target is dropped. *)
Theorem C07_reg2_accept : forall n, 0 <= n -> forall s, reachable n s -> forall o, wf_op n o ->
  r_id (s_reg (fst (step true s o))) = r_id (s_reg s) \/
  exists i len tag now, o = Reg2 i len tag now /\ r_pending (s_reg s) = Some i /\
    REG2_MIN_LEN <= len /\ r_id (s_reg (fst (step true s o))) = tag /\
    r_pending (s_reg (fst (step true s o))) = None /\
    r_flag (s_reg (fst (step true s o))) = true /\ r_target (s_reg (fst (step true s o))) = None.
Proof. intros n Hn s R o W. destruct (sp_id (reach_spec n Hn s R o W)) as [[_ H]|H]; auto. Qed.

(** REG2 rounds.  A housekeeping pass sends the broadcast to every uplink exactly when one is
    armed (plus at most one re-join REG2 to an uplink it resets) and disarms it; no other event
    emits a REG2, and the flag is armed exactly by an accepted REG2. *)
Theorem C07_one_broadcast_round : forall n, 0 <= n -> forall s, reachable n s -> forall o, wf_op n o ->
  match o with
  | Tick now amb due =>
    r_flag (s_reg (fst (step true s o))) = false /\
    forall k, 0 <= k < n ->
      Z.b2z (r_flag (s_reg s)) <= reg2_cnt (snd (step true s o)) k
        <= Z.b2z (r_flag (s_reg s)) + Z.b2z (memz k due)
  | _ =>
    (forall k, reg2_cnt (snd (step true s o)) k = 0) /\
    r_flag (s_reg (fst (step true s o))) =
      r_flag (s_reg s) || accepted (obs_of s []) o (obs_of (fst (step true s o)) (snd (step true s o)))
  end.
Proof. intros n Hn s R o W. exact (sp_rounds (reach_spec n Hn s R o W)). Qed.

(** Every packet emitted is a REG1 or REG2 and carries the id adopted at that moment. *)
Theorem C07_ids_current : forall n, 0 <= n -> forall s, reachable n s -> forall o, wf_op n o ->
  pkts_ok (r_id (s_reg (fst (step true s o)))) (snd (step true s o)).
Proof. intros n Hn s R o W. exact (sp_pkts (reach_spec n Hn s R o W)). Qed.

(** An uplink that is connected after an event was connected before it, or the event is a REG3
    received on that very uplink. *)
Theorem C07_connected_only_by_reg3 : forall n, 0 <= n -> forall s, reachable n s -> forall o, wf_op n o ->
  forall k, 0 <= k -> nth (Z.to_nat k) (s_conn (fst (step true s o))) false = true ->
  nth (Z.to_nat k) (s_conn s) false = true \/ exists t, o = Reg3 k t.
Proof. intros n Hn s R o W. exact (step_conn (reach_spec n Hn s R o W)). Qed.

(** REG_ERR (from any uplink, in any state) cancels the pending attempt and emits nothing. *)
Theorem C07_regerr_cancels : forall fx s i now,
  r_pending (s_reg (fst (step fx s (RegErr i now)))) = None /\
  r_target (s_reg (fst (step fx s (RegErr i now)))) = None /\
  snd (step fx s (RegErr i now)) = [].
Proof. intros. cbn. auto. Qed.

(** Timeout.  With a REG1 awaited, a pass at or after the deadline (= last REG1 transmission +
    4 s by C07_single_outstanding) abandons it and sends no REG1; a pass before it keeps it. *)
Theorem C07_timeout_abandons : forall n, 0 <= n -> forall s, reachable n s -> forall o, wf_op n o ->
  forall j now amb due, o = Tick now amb due -> r_pending (s_reg s) = Some j ->
  (r_ptimeout (s_reg s) <= now ->
     r_pending (s_reg (fst (step true s o))) = None /\
     r_target (s_reg (fst (step true s o))) = None /\ reg1_of (snd (step true s o)) = []) /\
  (now < r_ptimeout (s_reg s) -> r_pending (s_reg (fst (step true s o))) = Some j).
Proof. intros n Hn s R o W. exact (step_timeout (reach_spec n Hn s R o W)). Qed.

(** ... so that a new attempt can start: with nothing awaited, no uplink counted active and the
    probing round over, a REG_NGP on uplink i is answered by REG1 on i in the same step. *)
Theorem C07_new_attempt_can_start : forall fx s i now,
  r_pending (s_reg s) = None -> r_active (s_reg s) = 0 -> r_pstate (s_reg s) <> PWaiting ->
  snd (step fx s (Ngp i now)) = [(K_REG1, i, r_id (s_reg s))] /\
  r_pending (s_reg (fst (step fx s (Ngp i now)))) = Some i.
Proof.
  intros fx [r conn] i now Hp Ha Hw. cbn [s_reg] in *.
  rewrite ngp_cases, (not_probing r Hw), Hp, Ha by contradiction. split; reflexivity.
Qed.

(** REFUTED for the code before commit "fix: count an uplink as active as soon as its REG3
    arrives" ([step false]): REG1 -> REG2 -> broadcast -> REG3 on uplink 0, then REG_NGP on
    uplink 1 before the next pass emits a group-creating REG1 while uplink 0 is connected
    (clause 2).  The same history is replayed on the real code by the harness on every run. *)
Theorem C07_reg1_only_unregistered_before_fix_refuted :
  exists n ops, wf_ops n ops = true /\ mon_C07 n ops (run false n 0 1 None ops) = 2%N.
Proof. exists 2, f4_ops. split; vm_compute; reflexivity. Qed.

(** Non-vacuity: the premises are satisfiable and the interesting branches are reached. *)
Example C07_happy_path :
  let ops := [Ngp 1 1050; Tick 3000 3000 []; Reg2 1 258 7 3040; Tick 4000 4000 [];
              Reg3 1 4020; Reg3 0 4030; Ngp 0 4040] in
  wf_ops 2 ops = true /\
  map (fun o => (o_out o, o_id o, o_pending o, o_conn o)) (snd (run true 2 0 1 (Some 1000) ops)) =
  [([], 0, None, [false; false]);
   ([(K_REG1, 1, 0)], 0, Some 1, [false; false]);
   ([], 7, None, [false; false]);
   ([(K_REG2, 0, 7); (K_REG2, 1, 7)], 7, None, [false; false]);
   ([], 7, None, [false; true]);
   ([], 7, None, [true; true]);
   ([], 7, None, [true; true])].
Proof. split; vm_compute; reflexivity. Qed.

Example C07_timeout_reached :
  let ops := [Ngp 0 10; Tick 4009 4009 []; Tick 4010 4010 []; Reg2 0 258 7 4011; Ngp 1 4012] in
  wf_ops 2 ops = true /\
  map (fun o => (o_out o, o_pending o, o_id o)) (snd (run true 2 0 1 None ops)) =
  [([(K_REG1, 0, 0)], Some 0, 0); ([], Some 0, 0); ([], None, 0); ([], None, 0);
   ([(K_REG1, 1, 0)], Some 1, 0)].
Proof. split; vm_compute; reflexivity. Qed.

Example C07_fix_effective :
  mon_C07 2 f4_ops (run true 2 0 1 None f4_ops) = 0%N /\
  o_out (last (snd (run true 2 0 1 None f4_ops)) (fst (run true 2 0 1 None f4_ops))) = [].
Proof. split; vm_compute; reflexivity. Qed.
