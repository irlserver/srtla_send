(** Props/C01.v — property C01 "Uplink path forwards every SRT datagram intact,
    once, in per-link order".  ONLY statements, their short proofs from the
    lemma files (Proofs/ForwardP.v, Proofs/C01P.v), the constant obligations and
    non-vacuity examples.  All theorems quantify over every initial link
    configuration [xs] (1..n uplinks, any regime, any probe-counter phase, with or
    without I/O), every op list (every interleaving of client packets, flush
    ticks, regime changes, resets, REG3/REG_ERR, housekeeping, uplink packets),
    every scheduler answer [sel], every gate vector and every sendmmsg oracle. *)
From Coq Require Import Permutation.
From Srtla Require Import Base Constants Wire Forward ForwardP Run_C01 C01P.

(** The literals of the property text, tied to the constants regenerated from /repo. *)
Theorem constants_ok_C01 :
  BATCH_SIZE_LOW_ACTIVITY = 4 /\ BATCH_SIZE_NORMAL = 16 /\ BATCH_SIZE_HIGH_LOAD = 32 /\
  BATCH_SEND_SIZE = 32 /\ BATCH_SIZE_HIGH_LOAD <= BATCH_SEND_SIZE /\
  FLUSH_INTERVAL_MS = 15 /\ BATCH_FLUSH_INTERVAL_MS = 15 /\
  STALL_PROBE_ONE_IN_N = 100 /\ MTU = 1500 /\
  SRTLA_TYPE_KEEPALIVE = 36864 /\ SRTLA_TYPE_REG1 = 37376 /\ SRTLA_TYPE_REG2 = 37377.
Proof. repeat split; try reflexivity; try (vm_compute; discriminate). Qed.

(** Every trace of the model satisfies the monitor, i.e. all clauses of the
    property text at once (intact, once, per-link order, hold bound, flush tick empties,
    duplicates only on gated links at most one per 100 routed data packets, losses only
    on failed / reset uplinks).  [wf_init]: probe counters start in 0..99 (the code keeps
    them there); [wf_ops]: the datagrams the sender itself originates in housekeeping /
    uplink steps are SRTLA control frames (checked on the real trace by clause 8). *)
Theorem C01_model_satisfies_monitor : forall xs ops,
  wf_init xs -> wf_ops ops -> ok_C01 xs (run xs ops) = true.
Proof. exact model_traces_ok. Qed.

(** Every copy ever accepted on an uplink is, exactly once, on the wire, lost, or still queued. *)
Theorem C01_conservation : forall xs ops, wf_init xs ->
  Forall (fun l => Permutation (acc l) (wire_of l ++ lost_of l ++ map cpy_of (queue l)))
         (exec (init xs) ops).
Proof. intros xs ops. apply exec_init_Forall, inv_conservation. Qed.

(** Bytes unchanged, exactly one uplink: the unique copies accepted on uplink j are exactly
    the client datagrams the scheduler routed to j, byte for byte, in arrival order;
    and one op routes its datagram to at most one uplink. *)
Theorem C01_bytes_unchanged : forall xs ops j, (j < length xs)%nat ->
  uniques (nth j (exec (init xs) ops) dlink) = routed_to j ops.
Proof.
  intros xs ops j Hj. rewrite exec_uniques by (unfold init; rewrite map_length; exact Hj).
  unfold uniques at 1. rewrite init_nth_acc. reflexivity.
Qed.
Theorem C01_one_uplink : forall o j1 j2, j1 <> j2 -> routed_to_op j1 o = [] \/ routed_to_op j2 o = [].
Proof. exact routed_one_uplink. Qed.

(** Per-link FIFO: what reached the wire is a subsequence of the arrival order, and the
    still-queued copies are exactly the most recent arrivals. *)
Theorem C01_fifo : forall xs ops, wf_init xs ->
  Forall (fun l => subseq (wire_of l) (acc l) /\
                   exists done, acc l = done ++ map cpy_of (queue l) /\ subseq (wire_of l) done)
         (exec (init xs) ops).
Proof.
  intros xs ops. apply exec_init_Forall. intros l Hl. split; [apply inv_fifo, Hl|apply inv_queue_suffix, Hl].
Qed.

(** The ghost wire log is what the steps emit (what the receiver sockets see). *)
Theorem C01_wire_is_output : forall hw o j l,
  if emits_client_data o
  then map fst (wire_of (fst (step_link hw o j l))) = map fst (wire_of l) ++ snd (step_link hw o j l)
  else wire_of (fst (step_link hw o j l)) = wire_of l.
Proof. exact step_link_wire. Qed.

(** Bounded hold: with I/O present fewer than 32 datagrams are ever queued, for every regime
    sequence; after a flush tick every such queue is empty. *)
Theorem C01_bounded_hold : forall xs ops, wf_init xs ->
  Forall (fun l => has_io l = true -> blen (queue l) < 32) (exec (init xs) ops).
Proof. intros xs ops. apply exec_init_Forall. intros l (_ & _ & H). exact H. Qed.
Theorem C01_flush_tick_empties_partial : forall xs ops now orc,
  Forall (fun l => has_io l = true -> queue l = []) (exec (init xs) (ops ++ [FlushTick now orc])).
Proof. intros. rewrite exec_app. cbn [exec]. apply step_flush_empties. Qed.

(** Duplicates only as probes: one op adds at most one copy to a link's arrival log — the
    unique copy on the scheduler's choice, or a byte-identical duplicate on another link that
    is gated and connected, for a data packet, when its 1-in-100 counter is due. *)
Theorem C01_dups_only_probes : forall hw o j l, acc_change o j l (fst (step_link hw o j l)).
Proof. exact step_link_acc. Qed.
(** ... and over ANY window of the history the number of duplicates on one link is at most
    ceil(routed data packets / 100). *)
Theorem C01_probe_rate : forall xs ops1 ops2 j, wf_init xs -> (j < length xs)%nat ->
  let l1 := nth j (exec (init xs) ops1) dlink in
  let l2 := nth j (exec (init xs) (ops1 ++ ops2)) dlink in
  0 <= nprobes l2 - nprobes l1 <= (routed_data ops2 + 99) / 100.
Proof. exact probe_rate_window. Qed.

(** Losses only where the text allows them: a link's lost log grows only in an op whose send
    oracle fails on that link, a reset of that link, or a housekeeping reset of that link. *)
Theorem C01_lost_only_on_failure : forall hw o j l,
  lost_of (fst (step_link hw o j l)) <> lost_of l -> may_lose o j.
Proof. exact step_link_lost. Qed.

(** Short sendmmsg counts: any oracle of positive counts transmits the whole batch (in order:
    the emitted list is a prefix of the queue, C01_wire_is_output); a zero count or an error
    ends the send. *)
Theorem C01_short_sends : forall total orc, 0 <= total -> Forall positive orc ->
  send_all (S (Z.to_nat total)) total 0 orc = (total, true).
Proof. intros total orc Ht Hp. apply send_all_positive; [exact Hp|lia|lia]. Qed.
Theorem C01_zero_count_is_error : forall f total sent rest,
  sent < total -> send_all (S f) total sent (SOk 0 :: rest) = (sent, false).
Proof. exact send_all_zero_is_error. Qed.

Definition ex_xs : list linit := [L LowActivity true 98 true; L Normal true 98 true].
Definition ex_d (k : Z) : dgram := [0; 0; 0; k; 1; 2].
Definition ex_ops : list op :=
  [Client 10 (ex_d 1) (Some 0%nat) true [false; true] [];
   Client 11 (ex_d 2) (Some 0%nat) true [false; true] [];
   Client 12 (ex_d 3) (Some 0%nat) true [false; true] [];
   Client 13 (ex_d 4) (Some 0%nat) true [false; true] [(0%nat, [SOk 2; SErr])];
   FlushTick 28 []].
Example C01_wf_satisfiable : wf_init ex_xs /\ wf_ops ex_ops.
Proof. split; repeat constructor; cbn; lia. Qed.
Example C01_wf_ops_with_control_frames :
  wf_ops [House [HKeep; HReset Reconnect] [[[144; 0; 1; 2]]; [[146; 1; 7]]]; Other [[[146; 0]]]].
Proof. repeat constructor. Qed.
(** a probe copy is made on the gated link (counter 98 -> 99 -> due), a short send followed by
    an error loses the rest of the batch, the flush tick delivers the probe *)
Example C01_run_reaches_probe_and_failure :
  map (fun p => (o_wire (snd p), o_q (snd p))) (run ex_xs ex_ops) =
  [([[]; []], [1; 0]); ([[]; []], [2; 1]); ([[]; []], [3; 1]);
   ([[ex_d 1; ex_d 2]; []], [0; 1]); ([[]; [ex_d 2]], [0; 0])].
Proof. vm_compute. reflexivity. Qed.
Example C01_monitor_accepts : monitor ex_xs (run ex_xs ex_ops) = 0%N.
Proof. vm_compute. reflexivity. Qed.
(** tampered traces: reordered wire (2), silent drop (3), copy on an ungated link (6),
    second copy too early (7), a 32nd datagram held (4) *)
Example C01_monitor_rejects_reorder :
  monitor [L LowActivity true 0 true]
    [(Client 1 (ex_d 1) (Some 0%nat) true [false] [], O [[]] [1] [0] [true]);
     (Client 2 (ex_d 2) (Some 0%nat) true [false] [], O [[]] [2] [0] [true]);
     (FlushTick 20 [], O [[ex_d 2; ex_d 1]] [0] [0] [true])] = (2 + 256 * 3)%N.
Proof. vm_compute. reflexivity. Qed.
Example C01_monitor_rejects_drop :
  monitor [L LowActivity true 0 true]
    [(Client 1 (ex_d 1) (Some 0%nat) true [false] [], O [[]] [1] [0] [true]);
     (FlushTick 20 [], O [[]] [0] [0] [true])] = (3 + 256 * 2)%N.
Proof. vm_compute. reflexivity. Qed.
Example C01_monitor_rejects_ungated_copy :
  monitor [L Normal true 0 true; L Normal true 0 true]
    [(Client 1 (ex_d 1) (Some 0%nat) true [false; false] [], O [[]; []] [1; 1] [0; 0] [true; true])]
  = (6 + 256 * 1)%N.
Proof. vm_compute. reflexivity. Qed.
Example C01_monitor_rejects_fast_copies :
  monitor [L Normal true 0 true; L Normal true 0 true]
    [(Client 1 (ex_d 1) (Some 0%nat) true [false; true] [], O [[]; []] [1; 1] [0; 0] [true; true]);
     (Client 2 (ex_d 2) (Some 0%nat) true [false; true] [], O [[]; []] [2; 2] [0; 0] [true; true])]
  = (7 + 256 * 2)%N.
Proof. vm_compute. reflexivity. Qed.
Example C01_monitor_rejects_overfull_queue :
  monitor [L HighLoad true 0 true]
    (map (fun k => (Client k (ex_d k) (Some 0%nat) true [false] [], O [[]] [k] [0] [true]))
         [1;2;3;4;5;6;7;8;9;10;11;12;13;14;15;16;17;18;19;20;21;22;23;24;25;26;27;28;29;30;31;32])
  = (4 + 256 * 32)%N.
Proof. vm_compute. reflexivity. Qed.
