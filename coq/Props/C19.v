(** Props/C19.v — property C19 "IP-list reload never strands the stream and never
    disturbs survivors".  ONLY statements, each with a short proof from the lemma files, constant
    obligations and non-vacuity examples.

    Vocabulary (Model/Reload.v): a [state] holds the connection list [conns] (link =
    label address, local ip, conn_id, full protocol state), the I/O map [io]
    (conn_id -> socket identity), the sequence tracker [trk], the previous routing
    choice [sel] and the queued list [pend].  [keep D c] = the link's address is in
    the list [D].  [fresh_ok] is the oracle premise: the random conn_ids drawn for
    new links are new and pairwise distinct, one per created socket. *)
From Srtla Require Import Base Constants Reload ReloadP Run_C19 C19P.

(** The tracker geometry the model reads from the generated constants. *)
Theorem constants_ok_C19 :
  SEQ_TRACKING_MASK = SEQ_TRACKING_SIZE - 1 /\ 0 < SEQ_TRACKING_SIZE /\
  0 <= SEQUENCE_TRACKING_MAX_AGE_MS.
Proof. repeat split; reflexivity || discriminate. Qed.

(** A reload whose file is missing/unreadable, or has no parsable line (empty, blank,
    all garbage), is refused and the whole state is untouched — and the housekeeping
    tick that follows finds nothing queued and leaves everything untouched too. *)
Theorem C19_refuse_untouched : forall s oc file now,
  (file = None \/ exists t, file = Some t /\ spec_ips oc t = []) ->
  exists r, next s (OSighup file oc now) = (s, Some (ARefuse r), []).
Proof.
  intros s oc file now [->|(t & -> & H)]; cbn [next analyze_file]; [eexists; reflexivity|].
  destruct (analyze_refuse oc t H) as [r ->]. eexists; reflexivity.
Qed.
Theorem C19_refuse_then_tick_untouched : forall s fail fresh now,
  pend s = None -> next s (OTick fail fresh now) = (s, None, []).
Proof. intros s fail fresh now H. cbn [next]. rewrite H. reflexivity. Qed.

(** Otherwise the analysis yields exactly the parsable lines in order, that list is
    what gets queued (nothing else changes), and the tick applies exactly it. *)
Theorem C19_applied_is_filter : forall s oc t now,
  spec_ips oc t <> [] ->
  exists fi,
    analyze_file oc (Some t) = AApply (spec_ips oc t) fi /\
    let s1 := fst (fst (next s (OSighup (Some t) oc now))) in
    pend s1 = Some (spec_ips oc t) /\ conns s1 = conns s /\ io s1 = io s /\
    trk s1 = trk s /\ sel s1 = sel s.
Proof.
  intros s oc t now Hne. destruct (analyze_apply oc t Hne) as [fi E]. exists fi.
  cbn [next analyze_file]. rewrite E. repeat split.
Qed.
Theorem C19_tick_applies_queued : forall s D fail fresh now,
  pend s = Some D ->
  let s1 := fst (fst (next s (OTick fail fresh now))) in
  let s' := fst (apply_changes D fail fresh s) in
  conns s1 = conns s' /\ io s1 = io s' /\ trk s1 = trk s' /\ sel s1 = sel s' /\ pend s1 = None.
Proof.
  intros s D fail fresh now H. cbn [next]. rewrite H.
  destruct (apply_changes D fail fresh s) as [s' att]. repeat split.
Qed.

(** Applying a list: the new connection list is the old links whose address is listed —
    the very same records (identity, addresses, full state), in the same order —
    followed by new links; each survivor keeps its socket; a new link never reuses an
    existing address or conn_id. *)
Theorem C19_survivors_identical : forall D fail fresh s,
  Inv s -> fresh_ok s (needed_ips (map l_lab (conns s)) D) fail fresh ->
  let s' := fst (apply_changes D fail fresh s) in
  exists added,
    conns s' = filter (keep D) (conns s) ++ added /\
    (forall c, In c (filter (keep D) (conns s)) ->
               io_get (l_id c) (io s') = io_get (l_id c) (io s)) /\
    (forall c, In c added -> ~ In (l_lab c) (map l_lab (conns s)) /\ ~ In (l_id c) (ids s)).
Proof.
  intros D fail fresh s HI Hf s'. exists (added D fail fresh s).
  split; [apply apply_conns|]. split; [exact (apply_io_kept D fail fresh s HI Hf)|].
  intros c Hc. split; [|exact (added_fresh D fail fresh s Hf _ (in_map l_id _ _ Hc))].
  apply (in_map l_lab), (added_labs_In D fail fresh s Hf) in Hc. tauto.
Qed.

(** An uplink no longer listed is gone from the list, its I/O handle is gone, and no
    tracker lookup (any sequence number, any time) returns its id any more; every
    other lookup returns what it returned before. *)
Theorem C19_removed_exactly : forall D fail fresh s,
  Inv s -> fresh_ok s (needed_ips (map l_lab (conns s)) D) fail fresh ->
  let s' := fst (apply_changes D fail fresh s) in
  (forall c, In c (conns s) -> keep D c = false ->
     ~ In (l_id c) (ids s') /\ io_get (l_id c) (io s') = None /\
     (forall seq now, trk_get seq now (trk s') <> Some (l_id c))) /\
  (forall seq now j, trk_get seq now (trk s) = Some j ->
     (forall c, In c (conns s) -> keep D c = false -> l_id c <> j) ->
     trk_get seq now (trk s') = Some j) /\
  (forall seq now, trk_get seq now (trk s) = None -> trk_get seq now (trk s') = None).
Proof.
  intros D fail fresh s HI Hf s'. split; [|split].
  - intros c Hc Hk. assert (Hr : In (l_id c) (removed_ids s D)) by (apply removed_ids_in; eauto).
    split; [exact (apply_removed_gone D fail fresh s HI Hf _ Hr)|].
    split; [exact (apply_io_removed D fail fresh s Hf _ Hr)|].
    intros seq now. exact (apply_trk_removed D fail fresh s HI _ seq now Hr).
  - intros seq now j Hj Hn. apply apply_trk_other; [exact HI|exact Hj|].
    intro E. apply removed_ids_in in E. destruct E as (c & Hc & Hk & Hid). exact (Hn c Hc Hk Hid).
  - intros seq now Hn. unfold s'. rewrite apply_trk_get, Hn by exact HI. reflexivity.
Qed.

(** The added links carry pairwise distinct addresses: exactly the listed addresses
    that no existing link has and whose socket could be created, each once, in the
    order of first mention; each comes with its I/O handle; a socket is attempted once
    per new address. *)
Theorem C19_added_once : forall D fail fresh s,
  Inv s -> fresh_ok s (needed_ips (map l_lab (conns s)) D) fail fresh ->
  let s' := fst (apply_changes D fail fresh s) in
  exists added,
    conns s' = filter (keep D) (conns s) ++ added /\
    NoDup (map l_lab added) /\
    (forall a, In a (map l_lab added) <->
               In a D /\ ~ In a (map l_lab (conns s)) /\ ~ In a fail) /\
    map l_lab added = filter (fun a => negb (mem a fail)) (needed_ips (map l_lab (conns s)) D) /\
    (forall c, In c added -> l_ip c = l_lab c /\ exists tok, io_get (l_id c) (io s') = Some tok) /\
    snd (apply_changes D fail fresh s) = needed_ips (map l_lab (conns s)) D /\
    NoDup (snd (apply_changes D fail fresh s)).
Proof.
  intros D fail fresh s HI Hf s'. exists (added D fail fresh s).
  split; [apply apply_conns|].
  split; [apply added_labs_NoDup, Hf|].
  split; [apply added_labs_In, Hf|].
  split; [apply added_labs, Hf|].
  split; [intros c Hc; split; [eapply added_ip, Hc|apply added_has_io, Hc]|].
  rewrite apply_attempts. split; [reflexivity|apply needed_NoDup].
Qed.

(** The previous routing choice is forgotten whenever an uplink was removed; when none
    was, it is kept and still denotes the same link. *)
Theorem C19_forget_choice : forall D fail fresh s,
  Inv s -> fresh_ok s (needed_ips (map l_lab (conns s)) D) fail fresh ->
  let s' := fst (apply_changes D fail fresh s) in
  ((exists c, In c (conns s) /\ keep D c = false) -> sel s' = None) /\
  ((forall c, In c (conns s) -> keep D c = true) ->
     sel s' = sel s /\
     forall i c, nth_link i (conns s) = Some c -> nth_link i (conns s') = Some c).
Proof.
  intros D fail fresh s _ _ s'. unfold s'. rewrite apply_sel, apply_conns. split.
  - intros [c [Hc Hk]]. destruct (removed_ids s D) eqn:Hr; [|reflexivity].
    rewrite (proj1 (removed_ids_nil_iff s D) Hr c Hc) in Hk. discriminate.
  - intro Hall. apply removed_ids_nil_iff in Hall.
    rewrite (removed_ids_nil_kept s D Hall), Hall. split; [reflexivity|].
    intros i c Hn. apply nth_link_app. exact Hn.
Qed.

(** After ANY history of startup, reloads (refused or applied), direct applies, routed
    packets, link events and reconnects, the three structures agree: conn_ids are
    pairwise distinct, the I/O map has exactly one entry per link, every tracker
    record names an existing link, and the routing choice indexes an existing link. *)
Theorem C19_structures_consistent : forall ops,
  wf_ops init ops -> Inv (final_from init ops).
Proof. intros ops H. exact (final_inv ops init init_inv H). Qed.

(** On every history the model's own trace satisfies the monitor, i.e. every
    clause of the property at every reload step. *)
Theorem C19_monitor_holds : forall probes ops,
  wf_ops init ops -> ok_C19 (run probes ops) = true.
Proof. intros probes ops H. exact (run_ok ops probes init init_inv H). Qed.

(** The oracle premise can always be met (so the theorems above are not vacuous). *)
Theorem C19_wf_satisfiable : forall s attempt fail, exists fresh, fresh_ok s attempt fail fresh.
Proof. exact fresh_exists. Qed.

(** Non-vacuity: a concrete history in which every interesting branch is taken. *)
Definition ex_orc : orc := [([49], Some 1); ([120], None); ([51], Some 3)].
(** file "1\n x \r\n\n3" : lines "1", " x " (garbage), "" (blank), "3" (no final newline) *)
Definition ex_text : list Z := [49; 10; 32; 120; 32; 13; 10; 10; 51].
Definition ex_ops : list op :=
  [ OCreate [1; 2] [] [(10, [0]); (11, [0])] 100;
    ORoute (Some 1) (Some 7) 105 [[1]; [1]];
    OSighup (Some ex_text) ex_orc 110;
    OTick [] [(12, [0])] 120 ].

Example C19_example_parse : analyze_text ex_orc ex_text = AApply [1; 3] (Some 2).
Proof. reflexivity. Qed.
Example C19_example_refusals :
  analyze_file ex_orc None = ARefuse RNotFound /\
  analyze_text ex_orc [] = ARefuse REmpty /\
  analyze_text ex_orc [32; 10; 9; 13; 10] = ARefuse REmpty /\
  analyze_text ex_orc [10; 120; 10] = ARefuse (RNoValid 2).
Proof. repeat split. Qed.
Example C19_example_wf : wf_ops init ex_ops.
Proof.
  vm_compute. repeat split; try (repeat constructor; simpl; intuition discriminate);
    try (intuition congruence); try lia.
Qed.
(** link 2 (id 11) is removed with its socket and its tracker record (seq 7), link 1
    survives untouched with its socket, link 3 is added once, the choice is forgotten *)
Example C19_example_effect :
  let s1 := final_from init (firstn 3 ex_ops) in
  let s2 := final_from init ex_ops in
  map l_lab (conns s1) = [1; 2] /\ trk_get 7 121 (trk s1) = Some 11 /\ sel s1 = Some 1 /\
  map l_lab (conns s2) = [1; 3] /\ map l_id (conns s2) = [10; 12] /\
  trk_get 7 121 (trk s2) = None /\ sel s2 = None /\
  io_get 10 (io s2) = io_get 10 (io s1) /\ io_get 11 (io s2) = None /\ io_get 12 (io s2) = Some 2.
Proof. vm_compute. repeat split. Qed.
Example C19_example_monitor : ok_C19 (run [7; 8] ex_ops) = true.
Proof. vm_compute. reflexivity. Qed.
