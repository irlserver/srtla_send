(** Props/C16.v — property C16 "Per-link CC soft cap and loss latch stay bounded and honest".

    Each uplink's CC target rate stays within [100 kbit/s, 200 Mbit/s], sits at the floor until
    an RTT sample exists, is lowered only by a loss back-off (x0.85, never below the rate the
    link is measurably delivering, never raising it) or once on entry to a drain (x0.75), and
    after its initial seeding from measured throughput grows per tick by at most 6 % and never
    to beyond twice the measured rate.  The loss-degraded verdict latches only after the loss
    average has stayed above 0.55 for 4 s and clears only once it falls below 0.25.

    Statements with their short proofs from the lemma files, constant obligations and
    non-vacuity examples.

    The model follows /repo with its explicit [seeded] flag.  With [target_bps == MIN_TARGET_BPS]
    doubling as the "not yet seeded" test (the code as found) the growth clause fails at the
    floor: witness [f7_witness] below, monitor clause 5, reproduced on the real controller and
    kept as a regression case here and in the harness. *)
From Coq Require Import Floats.
From Srtla Require Import Base Constants LinkCc LinkCcF LinkCcP Run_C16 C16P LinkCcRttP LinkCcFP.
From Srtla Require FConstants.
Local Open Scope Z_scope.

(** Constants the property names, tied to the file generated from /repo on every run. *)
Theorem constants_ok_C16 :
  MIN_TARGET_BPS = 100000 /\ MAX_TARGET_BPS = 200000000 /\
  BACKOFF_PERMILLE = 850 /\ DRAIN_PERMILLE = 750 /\
  AI_STEP_PERMILLE <= 60 /\ HAI_STEP_PERMILLE <= 60 /\ FAST_RECOVERY_STEP_PERMILLE <= 60 /\
  LOSS_DEGRADE_SUSTAIN_MS = 4000 /\
  FConstants.LOSS_DEGRADE_ENTER = 0x1.199999999999ap-1%float /\   (* 0.55 *)
  FConstants.LOSS_DEGRADE_CLEAR = 0x1p-2%float.                    (* 0.25 *)
Proof. repeat split; try reflexivity; vm_compute; congruence. Qed.

(** Every well-formed history of [tick_all] calls — any number of links, appearing
    and disappearing, any RTT / byte / NAK / bitrate / loss-average inputs, any tick times —
    produces a trace on which the monitor (the property text, clause by clause, over
    snapshots only) never fires.  [wf]: a conn_id occurs once per call, counters have their
    Rust types, and the model's own smoothed RTT stays finite and non-zero once the link has left
    Bootstrap. *)
Theorem C16_monitor_holds : forall ops, wf ops = true -> ok_C16 (run ops) = true.
Proof.
  intros ops H. unfold ok_C16, mon_verdict, run.
  pose proof (mon_run_ok ops [] [] (Forall2_nil _) (NoDup_nil _) H) as E.
  unfold mctrl in *. rewrite E. reflexivity.
Qed.

(** The same with the premise on the INPUTS only ([wf_inputs]: a conn_id occurs once per call,
    counters have their Rust types, and every RTT the connection reports is either no sample
    — zero, negative, NaN, infinite — or a finite value in [2^-200, 2^200] ms; the real RTT
    source is capped at 10 000 ms).  The part of [wf] about the model's own smoothed RTT is
    derived: the age-bucketed EWMA of binary64 numbers in that interval stays in it (IEEE-754
    round-to-nearest-even, Flocq).  Depends on the standard library's float and real-number
    axioms (allow-listed by name in props/C16.json). *)
Theorem C16_wf_from_inputs : forall ops, wf_inputs ops = true -> wf ops = true.
Proof. intros ops H. apply wf_from_inputs; [intros k s []|exact H]. Qed.

Theorem C16_monitor_holds_for_inputs : forall ops, wf_inputs ops = true -> ok_C16 (run ops) = true.
Proof. intros ops H. apply C16_monitor_holds, C16_wf_from_inputs, H. Qed.

(** Invariants of everything the controller holds after ANY history (no premise):
    range, Bootstrap <-> unseeded and then at the floor, budgets and counters within their bounds
    (the [+= 1] counters of the code cannot overflow), window sums are u32 values,
    [loss_high_since_ms <> 0] only while the average is above the entry threshold. *)
Theorem C16_link_inv_reachable : forall ops k s, In (k, s) (ctrl_after ops) ->
  core_inv (k_core s) /\ eff_inv (k_eff s) /\ win_inv (k_win s) /\ latch_inv (k_latch s).
Proof. intros ops k s H. destruct (full_inv_after ops k s H) as [(A & B & C) D]. tauto. Qed.

(** "stays within [100 kbit/s, 200 Mbit/s]" *)
Theorem C16_target_range : forall ops k s, In (k, s) (ctrl_after ops) ->
  100000 <= c_target (k_core s) <= 200000000.
Proof. intros ops k s H. destruct (full_inv_after ops k s H) as [((A & _) & _) _]. exact A. Qed.

(** "sits at the floor until an RTT sample exists": a link in Bootstrap is at the floor, and
    a link whose smoothed RTT is still unset stays unset, in Bootstrap and at the floor through
    every tick that carries no RTT sample (a fresh link starts with it unset). *)
Theorem C16_floor_until_rtt :
  (forall ops k s, In (k, s) (ctrl_after ops) ->
     c_state (k_core s) = Bootstrap -> c_target (k_core s) = 100000) /\
  r_ewma (k_rtt link_default) = fzero /\
  (forall s now i, r_ewma (k_rtt s) = fzero -> rtt_sample_present (i_rtt i) = false ->
     let s' := link_step s now i in
     r_ewma (k_rtt s') = fzero /\ c_state (k_core s') = Bootstrap /\ c_target (k_core s') = 100000).
Proof.
  split; [|split; [reflexivity|exact floor_until_rtt_step]].
  intros ops k s H. destruct (full_inv_after ops k s H) as [(A & _) _]. apply bootstrap_floor, A.
Qed.

(** "is lowered only by a loss back-off (x0.85, never below the rate the link is measurably
    delivering, never raising it) or once on entry to a drain (x0.75)".
    Full statement over every link state satisfying the invariant (hence every reachable one):
    the only third possibility is that the smoothed RTT itself degenerated (overflow to
    infinity), which sends the link back to Bootstrap. *)
Theorem C16_lowered_only_by : forall s now i, core_inv (k_core s) ->
  let s' := link_step s now i in
  let t := c_target (k_core s) in let t' := c_target (k_core s') in let obs := observed_bps i in
  t' < t ->
  (c_state (k_core s') = BackingOff /\ t * 850 / 1000 <= t' /\ Z.min obs t <= t' /\
     t' <= Z.max 100000 (Z.max (t * 850 / 1000) (Z.min obs t))) \/
  (c_state (k_core s') = Drain /\ c_state (k_core s) <> Drain /\ t' = Z.max 100000 (t * 750 / 1000)) \/
  (c_state (k_core s') = Bootstrap /\ c_state (k_core s) <> Bootstrap /\
     rtt_invalid (pre_tick_rtt s now i) = true).
Proof. exact lowered_only_by. Qed.

(** ... and under the well-formedness premise the third case is gone. *)
Theorem C16_lowered_only_by_wf : forall s now i, core_inv (k_core s) -> rtt_stays_valid s now i = true ->
  let s' := link_step s now i in
  let t := c_target (k_core s) in let t' := c_target (k_core s') in let obs := observed_bps i in
  t' < t ->
  (c_state (k_core s') = BackingOff /\ t * 850 / 1000 <= t' /\ Z.min obs t <= t' /\
     t' <= Z.max 100000 (Z.max (t * 850 / 1000) (Z.min obs t))) \/
  (c_state (k_core s') = Drain /\ c_state (k_core s) <> Drain /\ t' = Z.max 100000 (t * 750 / 1000)).
Proof.
  intros s now i Hinv Hv. cbv zeta. intro Hlt.
  destruct (lowered_only_by s now i Hinv Hlt) as [H|[H|(Hb & Hnb & _)]]; [left; exact H|right; exact H|].
  contradiction (stays_out_of_bootstrap s now i Hv Hnb Hb).
Qed.

(** every back-off tick of a seeded link: never raises, never below measured, at most -15 % *)
Theorem C16_backoff_honest : forall s now i, core_inv (k_core s) -> c_seeded (k_core s) = true ->
  let s' := link_step s now i in
  let t := c_target (k_core s) in let t' := c_target (k_core s') in
  c_state (k_core s') = BackingOff ->
  t' <= t /\ Z.min (observed_bps i) t <= t' /\ t * 850 / 1000 <= t'.
Proof.
  intros s now i (Hrange & _) Hsd. cbv zeta. intro Hst.
  pose proof (link_step_target_spec s now i Hsd Hrange) as H. cbv zeta in H. rewrite Hst in H.
  destruct H as [Hle H]. split; [exact Hle|]. change 850 with BACKOFF_PERMILLE. rewrite H. lia.
Qed.

(** "after its initial seeding ... grows per tick by at most 6 % and never to beyond twice the
    measured rate".  [c_seeded] is set by the first tick out of Bootstrap and is equivalent to
    "not in Bootstrap" on reachable states. *)
Theorem C16_growth_bound : forall s now i, core_inv (k_core s) -> c_seeded (k_core s) = true ->
  let s' := link_step s now i in
  let t := c_target (k_core s) in let t' := c_target (k_core s') in
  t' * 1000 <= t * 1060 /\ (t < t' -> t' <= 2 * observed_bps i).
Proof. exact growth_bound. Qed.

Theorem C16_seeded_iff_left_bootstrap : forall s, core_inv (k_core s) ->
  (c_seeded (k_core s) = true <-> c_state (k_core s) <> Bootstrap).
Proof. intro s. apply seeded_iff. Qed.

(** "latches only after the loss average has stayed above 0.55 for 4 s and clears only once it
    falls below 0.25": one step (the history part — [loss_high_since_ms] is the time of a tick
    since which every tick saw the average above 0.55 — is clause 6 of the monitor, proved in
    [C16_monitor_holds], and [latch_inv] above). *)
Theorem C16_loss_latch : forall s now i,
  let s' := link_step s now i in
  let l := k_latch s in let l' := k_latch s' in
  (l_degraded l = false -> l_degraded l' = true ->
     f_lt FConstants.LOSS_DEGRADE_ENTER (i_lewma i) = true /\ l_high_since l <> 0 /\
     LOSS_DEGRADE_SUSTAIN_MS <= now - l_high_since l) /\
  (l_degraded l = true -> l_degraded l' = false ->
     f_lt (i_lewma i) FConstants.LOSS_DEGRADE_CLEAR = true) /\
  (l_high_since l' = l_high_since l \/ l_high_since l' = 0 \/ (l_high_since l = 0 /\ l_high_since l' = now)).
Proof.
  intros s now i. cbv zeta. rewrite link_step_latch. destruct (rtt_invalid _).
  - split; [intros; congruence|]. split; [intros; congruence|left; reflexivity].
  - rewrite update_loss_ewma_degraded, update_loss_ewma_since. unfold ssub, LOSS_DEGRADE_SUSTAIN_MS.
    destruct (f_lt FConstants.LOSS_DEGRADE_ENTER (i_lewma i)); [|lia].
    destruct (l_high_since (k_latch s) =? 0) eqn:E0; lia.
Qed.

(** Model fidelity.  The code computes the new target in f64 ([x as f64 * permille / 1000.0],
    [min], [max], [+], [as u64]); [Model/LinkCc.v] uses integers with floor.  The literal f64
    rendering of those expressions ([Model/LinkCcF.v]: [sane_observed_f], [next_target_f]) is
    PROVED to give the same clamped observation and the same new target on every step of every
    link satisfying the invariant (IEEE-754 round-to-nearest-even: the quotient by 1000.0 is
    exact or at least 1/1000 - 2^-25 inside the unit interval above the integer quotient, and
    the one further rounding moves it by at most 2^-25).  Depends on FloatAxioms + the
    classical real-number axioms (allow-listed by name). *)
Theorem C16_float_rendering_exact : forall s now i, core_inv (k_core s) ->
  float_agrees s (link_step s now i) i = true.
Proof. exact float_agrees_step. Qed.

(** "for links that appear and disappear": after [tick_all] the controller tracks exactly the
    connections it was shown, each once. *)
Theorem C16_gc : forall c now inps,
  (forall k, In k (map fst (tick_all c now inps)) <-> In k (map i_id inps)) /\
  (NoDup (map fst c) -> NoDup (map fst (tick_all c now inps))).
Proof. intros c now inps. split; [intro k; apply keys_tick_all|apply NoDup_keys_tick_all]. Qed.

Theorem C16_gc_reachable : forall ops, NoDup (map fst (ctrl_after ops)).
Proof. intro ops. apply NoDup_keys_from. constructor. Qed.

(** F7 witness (see the header): ticks 2 s apart, smoothed RTT alternating 20 / 45 ms (every
    45 is a fresh entry to Drain), no traffic; after nine drains the cap sits at exactly the
    floor.  On the code as found the next Climbing tick re-seeded it to 1 000 000. *)
Definition f7_witness : list op :=
  map (fun k => Tick (2000 * Z.of_nat k)
                  [mkInp 1 (if Nat.even k then 20 else 45)%float 0 0 0%float 0%float])
      (seq 0 19).

Example C16_f7_witness_now_ok :
  wf_inputs f7_witness = true /\ wf f7_witness = true /\ ok_C16 (run f7_witness) = true /\
  map (fun x => map o_tgt (t_links (snd x))) (skipn 16 (run f7_witness)) = [[100112]; [100000]; [100000]].
Proof. vm_compute. repeat split; reflexivity. Qed.

(** A well-formed history that exercises the clauses: climbing (+6 %), a back-off floored at
    the measured rate, the latch setting after 4 s above 0.55, a drain entry (x0.75), the
    latch clearing below 0.25. *)
Definition ex_inp (k : nat) : inp :=
  mkInp 7 (if Nat.eqb k 6 then 45 else 20)%float
        (1316000 * Z.of_nat (k + 1))
        (if Nat.leb 2 k && Nat.leb k 4 then 100 * (Z.of_nat k - 1) else if Nat.leb 5 k then 300 else 0)
        1000000%float
        (if Nat.leb 1 k && Nat.leb k 7 then 0x1.ccccccccccccdp-1 else 0x1.999999999999ap-4)%float.
Definition ex_ops : list op := map (fun k => Tick (2000 * Z.of_nat k + 1) [ex_inp k]) (seq 0 11).

Example C16_wf_nonvacuous :
  wf_inputs ex_ops = true /\ wf ex_ops = true /\ ok_C16 (run ex_ops) = true /\
  map (fun x => map (fun o => (o_st o, o_tgt o, o_deg o)) (t_links (snd x))) (run ex_ops) =
  [[(1, 1060000, false)]; [(1, 1123600, false)]; [(3, 1000000, false)]; [(3, 1000000, true)];
   [(3, 1000000, true)]; [(1, 1040000, true)]; [(4, 780000, true)]; [(1, 811200, true)];
   [(1, 843648, false)]; [(1, 877393, false)]; [(1, 912488, false)]].
Proof. vm_compute. repeat split; reflexivity. Qed.

(** the monitor is not trivially true: it rejects a +7 % step, a cut outside back-off / drain,
    and a latch that sets at once *)
Example C16_monitor_rejects :
  let i := mkInp 1 20%float 0 0 1000000%float 0%float in
  let m := mkMon false 1000000 1 true true None false 0%N in
  m_bad (mon_step m 5000 i (L 1 0 1070001 20 0 20 0 0 false [])) = cl_growth /\
  m_bad (mon_step m 5000 i (L 2 0 900000 20 0 20 0 0 false [])) = cl_lowered /\
  m_bad (mon_step m 5000 i (L 1 0 1000000 20 0 20 0 0x1.ccccccccccccdp-1 true [])) = cl_latch_on.
Proof. vm_compute. repeat split; reflexivity. Qed.

(** the premise [c_seeded] of [C16_growth_bound] is the property's "after its initial
    seeding": the seeding tick itself jumps from the floor to the measured rate *)
Example C16_seeding_jump :
  c_target (k_core (link_step link_default 1000 (mkInp 1 20%float 0 0 3000000%float 0%float))) = 3180000.
Proof. vm_compute. reflexivity. Qed.
