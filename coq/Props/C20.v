(** Props/C20.v — property C20 "Telemetry subscriptions never block the data plane and
    stay ordered".  Statements with short proofs from Proofs/HubP.v and Proofs/C20P.v.

    Model: Model/Hub.v — small-step interleaving semantics of SubscriptionHub; a schedule
    is any list of [Start t op] / [Step t] over any number of tasks, any channel
    capacities (clamped to >= 1: tokio's mpsc::channel panics on 0), any topics, any payloads.
    Monitor: Run/Run_C20.v [ok_C20] — the property text over the observable trace. *)
From Srtla Require Import Base Hub Run_C20 HubP C20P Shape.

(** The await structure the model's atomic sections are built from, extracted from
    src/subscriptions.rs on every run: the only awaits are [entries.lock().await], and no
    await occurs while a guard is alive. *)
Theorem constants_ok_C20 :
  Shape.hub_publish_awaits = [Shape.Lock; Shape.Lock] /\
  Shape.hub_publish_await_under_lock = false /\
  Shape.hub_subscribe_awaits = [Shape.Lock] /\
  Shape.hub_subscribe_await_under_lock = false /\
  Shape.hub_unsubscribe_awaits = [Shape.Lock] /\
  Shape.hub_unsubscribe_await_under_lock = false.
Proof. repeat split; reflexivity. Qed.

(** For every schedule (every interleaving at await points of subscribe,
    unsubscribe, publish, len and receiver-side recv/close by any number of tasks) the
    trace of the model satisfies every clause of the monitor. *)
Theorem C20_monitor_holds : forall sched : list sev, ok_C20 (run sched) = true.
Proof. exact run_ok. Qed.

(** The whole-operation composition used by the sequential correspondence is one of those
    schedules, so it satisfies the monitor too. *)
Theorem C20_sequential_is_schedule : forall calls, run_calls init calls = run (calls_sched init calls).
Proof. intro calls. exact (run_calls_is_run calls init). Qed.
Theorem C20_sequential_monitor_holds : forall calls, ok_C20 (run_calls init calls) = true.
Proof. intro calls. rewrite run_calls_is_run. apply run_ok. Qed.

(** Publishing never waits on a subscriber.
    (1) in every reachable state a task can only be blocked while waiting for the hub mutex
        that another task holds;
    (2) a task that is not blocked makes progress when polled — in particular every step
        of a publisher other than taking the mutex is always enabled;
    (3) the holder releases the mutex after [hold_measure] polls of its own (1 + number of
        entries left to fan out), none of which can block;
    (4) whether a task is blocked does not depend on any channel's queue, capacity or
        closed flag;  (5) the "blocked" event is emitted exactly in that situation. *)
Theorem C20_publish_wait_free :
  (forall sched t, blocked (reach sched) t = true ->
     exists h, h <> t /\ lock (reach sched) = Some h /\ holding (get_pc (reach sched) h) = true /\
               waiting (get_pc (reach sched) t) = true) /\
  (forall s t, get_pc s t <> Idle -> blocked s t = false ->
     get_pc (fst (step_task s t)) t <> get_pc s t) /\
  (forall s h, holding (get_pc s h) = true -> lock (poll_n (hold_measure (get_pc s h)) s h) = None) /\
  (forall s cs t, blocked (set_chans s cs) t = blocked s t) /\
  (forall s t, blocked s t = true <-> snd (step_task s t) = [EBlocked t]).
Proof.
  split; [exact reach_blocked_by_holder|]. split; [exact progress|].
  split; [intros s h H; exact (holder_releases _ s h H eq_refl)|].
  split; [exact blocked_indep_chans|exact blocked_iff_event].
Qed.

(** With the mutex free, a publisher polled alone returns within |entries| + 4 polls,
    whatever the channels contain (full, closed, never read). *)
Theorem C20_publish_alone_completes : forall s t tp d, lock s = None -> get_pc s t = PubWait tp d ->
  exists n, (n <= length (entries s) + 4)%nat /\
            get_pc (poll_n n s t) t = Idle /\ lock (poll_n n s t) = None.
Proof. exact publish_alone_completes. Qed.

(** Own topic, own id, publication order, at most once.  In every reachable state, every
    line sitting in a connection's queue (i) is the publication with that number in the
    global publication log — same topic, same data, (ii) carries an id that was allocated
    for exactly that topic and that connection, (iii) is newer than everything its id has
    already received; and every queue is ordered by publication number with distinct ids
    inside one publication.  Hence each id receives a strictly increasing sequence of
    publication numbers of its own topic. *)
Theorem C20_topic_order_once : forall sched, exists m,
  mon_run m_init (run sched) = MOk m /\
  length (m_pubs m) = npub (reach sched) /\
  (forall c mg q, queued (reach sched) c mg q ->
     nth_error (m_pubs m) q = Some (m_topic mg, m_data mg) /\
     In (mk (m_id mg) (m_topic mg) c) (alloc (reach sched)) /\
     (get_lastq (reach sched) (m_id mg) <= q)%nat) /\
  (forall c ch, lookup (chans (reach sched)) c = Some ch -> qsorted (c_q ch)).
Proof.
  intro sched. destruct (reachable_inv sched) as [m [H HI]]. exists m.
  split; [exact H|]. split; [exact (i_pubs_len _ _ HI)|]. split; [|exact (i_qsorted _ _ HI)].
  intros c mg q Hq. split; [exact (i_pubs _ _ HI _ _ _ Hq)|exact (proj2 (i_q _ _ HI _ _ _ Hq))].
Qed.

(** Subscription ids are unique: all ids ever allocated are pairwise distinct, registered
    entries are allocated ones with distinct ids, ids count up from 0. *)
Theorem C20_unique_ids : forall sched,
  NoDup (ids_of (alloc (reach sched))) /\ NoDup (ids_of (entries (reach sched))) /\
  incl (entries (reach sched)) (alloc (reach sched)) /\
  (forall e, In e (alloc (reach sched)) -> 0 <= e_id e < next_id (reach sched)).
Proof. exact reach_unique_ids. Qed.

(** Nothing is delivered after an unsubscribe has completed.  [m_dead] records an id when
    its unsubscribe returned (removed = true, or called after the subscribe had returned)
    or when a publish that had to prune it returned, together with the length n of the
    publication log at that moment.  From then on, in every reachable state: the id is not
    registered, no subscribe is about to register it, no queued line for it stems from
    publication n or later, and it has received nothing from n or later. *)
Theorem C20_nothing_after_unsubscribe : forall sched, exists m,
  mon_run m_init (run sched) = MOk m /\
  forall id n, lookup (m_dead m) id = Some n ->
    ~ In id (ids_of (entries (reach sched))) /\
    (forall t tp c, ~ sub_pending (reach sched) t id tp c) /\
    In id (ids_of (alloc (reach sched))) /\
    (n <= npub (reach sched))%nat /\
    (get_lastq (reach sched) id <= n)%nat /\
    (forall c mg q, queued (reach sched) c mg q -> m_id mg = id -> (q < n)%nat).
Proof.
  intro sched. destruct (reachable_inv sched) as [m [H HI]]. exists m. split; [exact H|exact (i_dead _ _ HI)].
Qed.

(** Closed subscribers are pruned: ids known to be gone (unsubscribed, or closed and their
    topic published since) are never counted — registered + gone <= allocated. *)
Theorem C20_pruned : forall sched, exists m,
  mon_run m_init (run sched) = MOk m /\
  blen (entries (reach sched)) + blen (m_dead m) <= blen (alloc (reach sched)).
Proof.
  intro sched. destruct (reachable_inv sched) as [m [H HI]]. exists m. split; [exact H|exact (count_bound _ _ HI)].
Qed.

Theorem C20_invariant : forall sched, exists m,
  mon_run m_init (run sched) = MOk m /\ Inv (fst (run_from init sched)) m.
Proof. exact reachable_inv. Qed.

Local Open Scope Z_scope.

(** a publisher really can be blocked (by a subscriber task holding the mutex) — and the
    monitor accepts that *)
Example C20_blocked_is_reachable :
  let sched := [Start 0 (OChan 1 1); Start 0 (OSub 0 1); Step 0; Start 1 (OPub 0 5); Step 1] in
  blocked (reach sched) 1 = true /\ run sched = [ECall 0 (OSub 0 1); ECall 1 (OPub 0 5); EBlocked 1] /\
  ok_C20 (run sched) = true.
Proof. vm_compute. repeat split; reflexivity. Qed.

(** delivery, Full drop, prune of a closed subscriber, and len all occur in one run *)
Example C20_run_example :
  run_calls init [(0, OChan 1 1); (0, OSub 0 1); (1, OPub 0 7); (1, OPub 0 8); (2, ORecv 1);
                  (2, OClose 1); (0, OLen); (1, OPub 0 9); (0, OLen)] =
  [ECall 0 (OSub 0 1); ERet 0 (RSub 0); ECall 1 (OPub 0 7); EPubLin 1 0 7; ERet 1 RPub;
   ECall 1 (OPub 0 8); EPubLin 1 0 8; ERet 1 RPub;
   ERecv 1 (Some {| m_id := 0; m_topic := 0; m_data := 7 |}); EClose 1;
   ECall 0 OLen; ERet 0 (RLen 1); ECall 1 (OPub 0 9); EPubLin 1 0 9; ERet 1 RPub;
   ECall 0 OLen; ERet 0 (RLen 0)].
Proof. vm_compute. reflexivity. Qed.

(** every clause of the property (codes 1 and 3 to 7 of [mon_code]) can fail: the monitor is not
    trivially true *)
Example C20_monitor_rejects_blocked_alone :
  mon_code [ECall 1 (OPub 0 5); EBlocked 1] = 1%N.
Proof. vm_compute. reflexivity. Qed.
Example C20_monitor_rejects_duplicate_id :
  mon_code [ECall 0 (OSub 0 1); ERet 0 (RSub 0); ECall 0 (OSub 0 1); ERet 0 (RSub 0)] = 3%N.
Proof. vm_compute. reflexivity. Qed.
Example C20_monitor_rejects_foreign_topic :
  mon_code [ECall 0 (OSub 0 1); ERet 0 (RSub 0); ECall 1 (OPub 1 5); EPubLin 1 1 5;
            ERecv 1 (Some {| m_id := 0; m_topic := 1; m_data := 5 |})] = 4%N.
Proof. vm_compute. reflexivity. Qed.
Example C20_monitor_rejects_reordering :
  mon_code [ECall 0 (OSub 0 1); ERet 0 (RSub 0); ECall 1 (OPub 0 5); EPubLin 1 0 5; ERet 1 RPub;
            ECall 1 (OPub 0 6); EPubLin 1 0 6; ERet 1 RPub;
            ERecv 1 (Some {| m_id := 0; m_topic := 0; m_data := 6 |});
            ERecv 1 (Some {| m_id := 0; m_topic := 0; m_data := 5 |})] = 5%N.
Proof. vm_compute. reflexivity. Qed.
Example C20_monitor_rejects_duplicate_delivery :
  mon_code [ECall 0 (OSub 0 1); ERet 0 (RSub 0); ECall 1 (OPub 0 5); EPubLin 1 0 5; ERet 1 RPub;
            ERecv 1 (Some {| m_id := 0; m_topic := 0; m_data := 5 |});
            ERecv 1 (Some {| m_id := 0; m_topic := 0; m_data := 5 |})] = 5%N.
Proof. vm_compute. reflexivity. Qed.
Example C20_monitor_rejects_delivery_after_unsubscribe :
  mon_code [ECall 0 (OSub 0 1); ERet 0 (RSub 0); ECall 0 (OUnsub 0); ERet 0 (RUnsub true);
            ECall 1 (OPub 0 5); EPubLin 1 0 5; ERet 1 RPub;
            ERecv 1 (Some {| m_id := 0; m_topic := 0; m_data := 5 |})] = 6%N.
Proof. vm_compute. reflexivity. Qed.
Example C20_monitor_rejects_unpruned :
  mon_code [ECall 0 (OSub 0 1); ERet 0 (RSub 0); EClose 1; ECall 1 (OPub 0 5); EPubLin 1 0 5; ERet 1 RPub;
            ECall 0 OLen; ERet 0 (RLen 1)] = 7%N.
Proof. vm_compute. reflexivity. Qed.
