(** C13 "Stall latch: quick to drop, conservative to rejoin, never blind".  The statements
    with short proofs from the lemma file Proofs/C13P.v, the constant obligations
    and non-vacuity examples.

    Vocabulary (Model/Stall.v, Model/StallOps.v, Run/Run_C13.v):
    a [link] = accounting [la], guard-private state [lg], further decision inputs [lx],
    refreshed caches [lc];  [step s o] runs one op of a history on the link vector
    (environment ops: in-flight changes, inbound bytes, earned ACKs, keepalive echoes,
    connect/disconnect, resets, foreign-field updates; [OSelect] = one real
    [select_connection_idx] call);  [trace s ops] records pre/post state of every op;
    [eff_stale x ceiling] = the effective staleness window, [dwell] = the rejoin dwell,
    [pull_window] = the silence-pull window, [proof_fresh] = proof present and younger
    than the window;  [ok_C13] = the property as a monitor over an observable trace
    (the same monitor is evaluated on the real code's traces on every check run).
    Times are u64 milliseconds; the smoothed RTT enters in whole milliseconds
    ([x_rttms] = [srtt as u64], [x_rttpos] = not [srtt <= 0.0]). *)
From Coq Require Import Floats.
From Srtla Require Import Base Constants FConstants Stall StallSel StallOps Run_Stall Run_C13 StallP C13P.
Local Open Scope Z_scope.

(** The literals the property text names ("4 x smoothed RTT", "1000 ms", "twice that
    window") and the pull window's (250 ms, 2 x RTT), tied to the generated constants. *)
Theorem constants_ok_C13 :
  STALL_STALE_RTT_MULT = 4 /\ STALL_STALE_FLOOR_MS = 1000 /\ STALL_REJOIN_DWELL_MULT = 2 /\
  SILENCE_PULL_FLOOR_MS = 250 /\ SILENCE_PULL_RTT_MULT = 2.
Proof. repeat split; reflexivity. Qed.

(** Every history of the model, from every admissible initial state, satisfies
    the property monitor: for ALL op lists (no bound on length, links, times). *)
Theorem C13_monitor_holds : forall s ops,
  good_init s -> forallb op_ok ops = true -> ok_C13 (length s) (trace s ops) = true.
Proof.
  intros s ops G W. unfold ok_C13. apply forallb_forall. intros i _.
  unfold ok_link. rewrite (mon_link_ok i ops s None 0); [reflexivity | | exact W].
  intros l Hn. exact (good_init_inv s i l G Hn).
Qed.

(** The effective staleness window is clamp(4 x srtt, 1000, ceiling) in u64 arithmetic;
    no RTT baseline => ceiling; a ceiling below the floor wins. *)
Theorem C13_eff_window : forall x ceil,
  eff_stale x ceil =
  if x_rttpos x then Z.min (Z.max (sat_mul_u64 (x_rttms x) 4) 1000) ceil else ceil.
Proof. reflexivity. Qed.
Theorem C13_eff_window_bounds : forall x ceil,
  (x_rttpos x = false -> eff_stale x ceil = ceil) /\
  (ceil < 1000 -> eff_stale x ceil = ceil) /\
  (1000 <= ceil -> x_rttpos x = true -> 1000 <= eff_stale x ceil <= ceil) /\
  (x_rttpos x = true -> 0 <= x_rttms x -> 4 * x_rttms x <= u64_max ->
   eff_stale x ceil = Z.min (Z.max (4 * x_rttms x) 1000) ceil).
Proof. exact eff_stale_bounds. Qed.

(** Engage.  Whatever op takes a link from not-latched to latched, from ANY state, is a
    routing decision with the guard on at which the link had delivery proof, at least the
    effective window old, and was connected with in-flight >= the configured backlog or
    held by the silence pull; the latch time is that decision's clock, the lifetime
    counter moves by one and no rejoin run is in progress. *)
Theorem C13_engage_sound : forall i s o l l',
  nth_error s i = Some l -> nth_error (fst (step s o)) i = Some l' ->
  g_latched (lg l) = 0 -> g_latched (lg l') <> 0 ->
  exists last now cfg ins, o = OSelect last now cfg ins /\ cf_guard cfg = true /\
    a_proof (la l) <> 0 /\ eff_stale (lx l) (cf_ceil cfg) <= ssub now (a_proof (la l)) /\
    ((a_conn (la l) = true /\ cf_min cfg <= a_inflight (la l)) \/ g_pulled (lg l') = true) /\
    g_latched (lg l') = now /\ g_events (lg l') = g_events (lg l) + 1 /\ g_recovery (lg l') = 0.
Proof.
  intros i s o l l' Hn Hn' L0 L1.
  destruct (step_view i s o l l' Hn Hn') as [(last & now & cfg & ins & -> & D) | [[_ ->] | (_ & G & _)]].
  - exists last, now, cfg, ins. destruct (gate_engage (decided_guard D) L0 L1) as (G & S & E).
    apply proof_stale_iff in S. split; [reflexivity | tauto].
  - cbn in L1. congruence.
  - congruence.
Qed.

(** Never blind.  Along every history (clock readings positive), a link that is latched has
    produced delivery proof; in particular a link whose stamp is 0 is never latched. *)
Theorem C13_never_without_proof : forall ops s,
  Forall seen_proof s -> forallb op_ok ops = true ->
  Forall (fun l => latched l = true -> a_proof (la l) <> 0) (run s ops).
Proof.
  induction ops as [|o t IH]; intros s Hs Hok; [exact Hs|].
  cbn [forallb] in Hok. apply andb_true_iff in Hok as [Ho Ht].
  cbn [run]. apply IH; [apply step_seen; assumption | exact Ht].
Qed.

(** Release, one step.  Whatever op takes a link from latched to not-latched, from ANY
    state, is a reset, a decision with the guard off, or a decision at which proof is fresh
    and the rejoin run (started at [stall_recovery_since_ms], or right now) spans the dwell. *)
Theorem C13_release_cases : forall i s o l l',
  nth_error s i = Some l -> nth_error (fst (step s o)) i = Some l' ->
  g_latched (lg l) <> 0 -> g_latched (lg l') = 0 ->
  (exists j, o = OReset j) \/
  exists last now cfg ins, o = OSelect last now cfg ins /\
    (cf_guard cfg = false \/
     (proof_fresh (la l) (lx l) now (cf_ceil cfg) = true /\
      dwell (lx l) (cf_ceil cfg) <= ssub now (if g_recovery (lg l) =? 0 then now else g_recovery (lg l)))).
Proof. exact release_cases. Qed.

(** Release, over the history (the invariant ties [stall_recovery_since_ms] to the trace).
    At a guard-on decision [t] of any history at which link [i] goes from latched to
    not-latched there is a start time S with now - S >= dwell = 2 x window such that the
    history up to and including [t] ends with an uninterrupted run, begun by a decision at
    time S, in which EVERY decision saw fresh proof with the guard on and the link was never
    reset. *)
Theorem C13_release_needs_dwell : forall s ops i pre t post last now cfg ins l l',
  good_init s -> forallb op_ok ops = true ->
  trace s ops = pre ++ t :: post ->
  t_op t = OSelect last now cfg ins -> cf_guard cfg = true ->
  nth_error (t_pre t) i = Some l -> nth_error (t_post t) i = Some l' ->
  latched l = true -> latched l' = false ->
  exists S, fresh_run_from i (pre ++ [t]) S /\ dwell (lx l) (cf_ceil cfg) <= ssub now S.
Proof. exact release_needs_dwell. Qed.
Theorem C13_dwell_is_twice_window : forall x ceil,
  dwell x ceil = sat_mul_u64 (eff_stale x ceil) 2 /\
  (0 <= eff_stale x ceil -> 2 * eff_stale x ceil <= u64_max -> dwell x ceil = 2 * eff_stale x ceil).
Proof. intros; split; [reflexivity | apply dwell_twice]. Qed.

(** Corollary: a single stamp never releases, nor does a draining backlog.  From ANY state in
    which link [i] is latched on stamp [p] with no rejoin run older than the stamp, along
    any history of guard-on decisions (clock >= p) and environment ops that bring link [i]
    no NEW proof and no reset — in-flight, inbound bytes, connection state and RTT may
    change freely — the link is still latched. *)
Theorem C13_single_proof_no_release : forall ops i p s l,
  nth_error s i = Some l -> held p l -> Forall (calm i p) ops ->
  exists l', nth_error (run s ops) i = Some l' /\ held p l'.
Proof. exact single_proof_no_release. Qed.

(** Silence pull: falls only when heard from within the window, or disconnected (or reset /
    guard off); rises only on a connected, loaded link silent for the whole window. *)
Theorem C13_pull_release : forall i s o l l',
  nth_error s i = Some l -> nth_error (fst (step s o)) i = Some l' ->
  g_pulled (lg l) = true -> g_pulled (lg l') = false ->
  (exists j, o = OReset j) \/
  exists last now cfg ins, o = OSelect last now cfg ins /\
    (cf_guard cfg = false \/ a_conn (la l) = false \/
     exists lr, a_lastrecv (la l) = Some lr /\ ssub now lr < pull_window (lx l) (cf_ceil cfg)).
Proof. exact pull_release_cases. Qed.
Theorem C13_pull_engage : forall i s o l l',
  nth_error s i = Some l -> nth_error (fst (step s o)) i = Some l' ->
  g_pulled (lg l) = false -> g_pulled (lg l') = true ->
  exists last now cfg ins, o = OSelect last now cfg ins /\ cf_guard cfg = true /\
    a_conn (la l) = true /\ cf_min cfg <= a_inflight (la l) /\
    (exists lr, a_lastrecv (la l) = Some lr /\ pull_window (lx l) (cf_ceil cfg) <= ssub now lr) /\
    g_pulls (lg l') = g_pulls (lg l) + 1.
Proof. exact pull_engage_cases. Qed.
Theorem C13_pull_window : forall x ceil,
  pull_window x ceil =
  Z.min (if x_rttpos x then Z.max (sat_mul_u64 (x_rttms x) 2) 250 else 250) (eff_stale x ceil).
Proof. exact pull_window_spec. Qed.

Definition up (t0 : Z) : link :=
  mkL (mkA true 20000 0 0 (Some t0) None None 0 0 0 2 t0 t0 0 0 [])
      (mkG false 0 0 0 0 false 0) (mkX 0 false false 0 0%float false 0) (mkC 5000 1%float 0).
Definition cfg0 : config := mkCfg false true true 32 3000 5000.
Definition ins0 : list selin := [selin0; selin0].

(** fresh links are admissible initial states *)
Example good_init_fresh : good_init [link0 7; link0 7; up 100].
Proof.
  unfold good_init. repeat (apply Forall_cons; [intros H; vm_compute in H; discriminate H|]). apply Forall_nil.
Qed.

(** a loaded link whose proof is 3000 ms old is latched — and not one ms earlier *)
Definition h_engage (dt : Z) : list op :=
  [OReg 0 40 100000; OSrtlaAck 0 true 100000; OInbound 1 (100000 + dt); OInbound 0 (100000 + dt);
   OSelect None (100000 + dt) cfg0 ins0].
Example engages_at_window :
  map (fun l => g_latched (lg l)) (run [up 100000; up 100000] (h_engage 3000)) = [103000; 0] /\
  map (fun l => g_latched (lg l)) (run [up 100000; up 100000] (h_engage 2999)) = [0; 0].
Proof. split; vm_compute; reflexivity. Qed.

(** after the latch: one echo per second keeps the proof fresh; the link rejoins at exactly
    2 x 3000 ms after the first fresh decision (109300 - 103300), not one ms earlier *)
Fixpoint keep_fresh (n : nat) (t : Z) : list op :=
  match n with
  | O => []
  | S k => OInbound 1 t :: OEcho 0 true (t - 40) t :: OSelect (Some 1) t cfg0 ins0 :: keep_fresh k (t + 1000)
  end.
Definition h_rejoin (last : Z) : list op :=
  h_engage 3000 ++ keep_fresh 6 103300 ++ [OInbound 1 last; OEcho 0 true (last - 40) last; OSelect (Some 1) last cfg0 ins0].
Example rejoins_after_dwell :
  map (fun l => g_latched (lg l)) (run [up 100000; up 100000] (h_rejoin 109299)) = [103000; 0] /\
  map (fun l => g_latched (lg l)) (run [up 100000; up 100000] (h_rejoin 109300)) = [0; 0].
Proof. split; vm_compute; reflexivity. Qed.

(** the histories above are well-formed, so [C13_monitor_holds] applies to them *)
Example histories_wf : forallb op_ok (h_rejoin 109300) = true.
Proof. vm_compute; reflexivity. Qed.

(** a calm segment exists: after the latch, a single earned ACK's stamp, then draining and
    decisions for 20 s — still latched (instance of the corollary's premises) *)
Example calm_nonvacuous :
  Forall (calm 0 103100) [OSrtAck 0 100; OInbound 0 103200; OSelect (Some 1) 104000 cfg0 ins0;
                          OSelect (Some 1) 123000 cfg0 ins0].
Proof. repeat constructor; cbn; intros; try reflexivity; try lia; try discriminate. Qed.
