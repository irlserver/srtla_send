(** Props/C08.v — "Failed uplinks are detected, retried forever, and rejoin cleanly".
    Statements, each with its short proof from the lemma files. *)
From Srtla Require Import Base Constants Reconnect ReconShell ReconStep Mon_C08 Run_C08.
From Srtla Require Import ReconnectP ReconStepP C08P C08LiveP.
From Srtla Require Shape.
Local Open Scope Z_scope.

(** the literals the property text names, against the regenerated constants *)
Lemma constants_ok_C08 :
  INITIAL_RETRY_CADENCE_MS = T_INIT_GAP /\ BASE_RECONNECT_DELAY_MS = T_RETRY_GAP /\
  MAX_BACKOFF_DELAY_MS = T_BACKOFF_CAP /\ WINDOW_DEFAULT = T_WINDOW /\ HOUSEKEEPING_INTERVAL_MS = T_TICK /\
  T_INIT_GAP = 1000 /\ T_RETRY_GAP = 5000 /\ T_BACKOFF_CAP = 120000 /\ T_WINDOW = 20000 /\ T_REJOIN = 30000 /\
  CONN_TIMEOUT_MS_MIN = 1000 /\ CONN_TIMEOUT_MS_MAX = 60000 /\ CONN_TIMEOUT_MS = 5000 /\
  STARTUP_GRACE_MS + 2 * HOUSEKEEPING_INTERVAL_MS < T_REJOIN /\ BASE_RECONNECT_DELAY_MS + 2 * HOUSEKEEPING_INTERVAL_MS < T_REJOIN.
Proof. vm_compute. repeat split; reflexivity. Qed.

(** Every trace of the model satisfies the monitor (clauses 1-6 of Mon_C08:
    teardown only when silent for the configured timeout / failed send / REG_ERR; attempts
    only in ticks and >= 1 s resp. >= 5 s apart; a dead link 120 s after its last attempt is
    retried by the next tick; housekeeping gives up only when no uplink is alive; a REG3
    leaves connected / zero in-flight / Warming{0} / default window).  Premises: clock
    readings positive and non-decreasing, and every housekeeping pass starts with the
    timeout refresh (what run_sender does since /repo 260b76c). *)
Theorem C08_monitor_holds : forall n t0 ops,
  wf_ops t0 ops = true -> all_refresh ops = true -> ok_C08 n t0 (trace n t0 ops) = true.
Proof.
  intros n t0 ops Hw Hr. apply andb_true_iff in Hw. destruct Hw as [H0 Hw].
  apply (monitor_run ops (init n t0) (ms0 n t0) t0); try assumption; [lia|apply init_inv|apply init_sync].
Qed.

(** the invariant of reachable states the link-level theorems below take as premise *)
Theorem C08_reachable_inv : forall n t0 ops,
  wf_ops t0 ops = true -> Inv (final (init n t0) ops).
Proof.
  intros n t0 ops H. unfold wf_ops in H. apply andb_true_iff in H. destruct H as [H0 H1].
  apply (final_inv ops (init n t0) t0); [lia|exact H1|exact (init_inv n t0)].
Qed.

(** Safety 1: in ANY state, whatever one op does to link i, the link is torn down (socket
    replaced, or connected -> not connected) only by a housekeeping pass that found it
    silent for the configured timeout, by a failed send on a socket that rejects sends, or
    by the receiver's REG_ERR.  No other op, and no routing penalty, appears. *)
Theorem C08_teardown_only_when_dead : forall s o i l l',
  0 < cfg_to s -> op_refresh o ->
  nth_error (links s) i = Some l -> nth_error (links (fst (step s o))) i = Some l' ->
  torn_link l l' = true ->
  match o with
  | OTick now _ _ _ => heard_nothing_l l now (cfg_to s)
  | OData _ _ _ _ _ => l_gen l' = l_gen l /\ l_sock l = false
  | ORegErr j _ => Nat.eqb i j = true /\ l_gen l' = l_gen l
  | _ => False
  end.
Proof. intros s o i l l' Hc Hr H1 H2. exact (LStep_torn _ _ o i l l' Hc Hr (step_link_at s o i l l' H1 H2)). Qed.

(** Safety 2: routing penalties (stall gate, weak, CC back-off, loss-degraded) are not read
    by the liveness plane: a housekeeping pass and a failed-send check give the same link
    (up to the penalties themselves and the Live/Degraded split), the same manager and the
    same datagrams whatever the penalties are. *)
Theorem C08_penalty_noninterference : forall i l p g now classic dg w flushed inf',
  (let '(l1, g1, w1) := tick_link i (set_pen l p) g now classic dg w in
   let '(l2, g2, w2) := tick_link i l g now classic dg w in
   l_conn l1 = l_conn l2 /\ l_lr l1 = l_lr l2 /\ l_to l1 = l_to l2 /\ l_rc l1 = l_rc l2 /\ l_win l1 = l_win l2 /\
   l_inf l1 = l_inf l2 /\ l_gen l1 = l_gen l2 /\ l_sock l1 = l_sock l2 /\
   (l_ph l1 = PReg <-> l_ph l2 = PReg) /\ g1 = g2 /\ w1 = w2) /\
  core (forward (set_pen l p) flushed inf') = core (forward l flushed inf') /\
  is_timed_out (set_pen l p) now = is_timed_out l now.
Proof.
  intros. split; [exact (tick_link_pen i l p g now classic dg w)|].
  split; [|reflexivity]. unfold forward. cbn [set_pen l_io]. destruct (flushed && l_io l); [|reflexivity].
  cbn [set_inf set_pen l_sock]. destruct (l_sock l); reflexivity.
Qed.

(** Safety 3: the attempt stamp moves only in a housekeeping pass, to the pass's clock, and
    then the previous attempt (if any) is >= 1 s back before the first establishment and
    >= 5 s back afterwards. *)
Theorem C08_retry_spacing : forall s o i l l', LInv l ->
  nth_error (links s) i = Some l -> nth_error (links (fst (step s o))) i = Some l' ->
  r_last (l_rc l') <> r_last (l_rc l) ->
  exists now r d w, o = OTick now r d w /\ r_last (l_rc l') = now /\
    (r_last (l_rc l) = 0 \/ (if r_est (l_rc l) =? 0 then 1000 else 5000) <= now - r_last (l_rc l)).
Proof. intros s o i l l' HI H1 H2. exact (LStep_last _ _ o i l l' HI (step_link_at s o i l l' H1 H2)). Qed.

(** Safety 4: the back-off is 5,10,20,40,80,120,120,... s: never below 5 s, never above 120 s *)
Theorem C08_backoff_cap : forall r,
  backoff_delay r <= 120000 /\ (0 <= r_fail r -> 5000 <= backoff_delay r) /\
  (forall l e g, map (fun k => backoff_delay (RC l k e g)) [0; 1; 2; 3; 4; 5; 6; 100] =
                 [5000; 10000; 20000; 40000; 80000; 120000; 120000; 120000]).
Proof.
  intros r. split; [exact (backoff_cap r)|]. split; [intros H; exact (proj1 (backoff_bounds r H))|exact backoff_ladder].
Qed.

(** Retries forever: outside the start-up probing phase, a link that is not connected and
    has heard nothing, whose last attempt is >= 120 s old and whose startup grace is over,
    is retried by the very next housekeeping pass — for every failure count. *)
Theorem C08_retries_forever : forall s now refresh dgs ws i l l', LInv l -> is_probing (rg s) = false ->
  nth_error (links s) i = Some l ->
  nth_error (links (fst (step s (OTick now refresh dgs ws)))) i = Some l' ->
  l_conn l = false -> l_lr l = None -> 120000 <= now - r_last (l_rc l) -> r_grace (l_rc l) < now ->
  r_last (l_rc l') = now.
Proof.
  intros s now refresh dgs ws i l l' HI HP H1 H2.
  pose proof (step_link_at s _ i l l' H1 H2) as ST. rewrite HP in ST.
  exact (LStep_forever _ l l' now refresh dgs ws i HI ST).
Qed.

(** Clean rejoin: whatever the link went through, a REG3 leaves it connected, heard "now",
    with the default window, zero in-flight and Warming{0, now}; and both teardown paths
    leave default window / zero in-flight / Registering / not gated. *)
Theorem C08_clean_rejoin : forall s j now l l',
  nth_error (links s) j = Some l -> nth_error (links (fst (step s (OReg3 j now)))) j = Some l' ->
  (l_conn l' = true /\ l_inf l' = 0 /\ l_ph l' = PWarm 0 now /\ l_lr l' = Some now /\ l_win l' = WINDOW_DEFAULT) /\
  (forall x t, let a := reconnected x t in
     l_conn a = false /\ l_lr a = None /\ l_win a = WINDOW_DEFAULT /\ l_inf a = 0 /\ l_ph a = PReg /\
     l_gen a = l_gen x + 1 /\ r_last (l_rc a) = t /\ r_fail (l_rc a) = 0 /\
     r_grace (l_rc a) = t + STARTUP_GRACE_MS /\ l_sock a = true /\ p_gated (l_pen a) = false) /\
  (forall x, let a := mark_for_recovery x in
     l_conn a = false /\ l_lr a = None /\ l_win a = WINDOW_DEFAULT /\ l_inf a = 0 /\ l_ph a = PReg /\
     l_gen a = l_gen x /\ p_gated (l_pen a) = false).
Proof.
  intros s j now l l' H1 H2. split; [|split; intros; cbn; tauto].
  exact (LStep_reg3 _ _ j now j l l' (step_link_at s _ j l l' H1 H2) (Nat.eqb_refl j)).
Qed.

(** Survivors: a housekeeping pass leaves a link that is connected and was heard from within
    the configured timeout connected, on the same socket, with its accounting untouched —
    whatever happens to the other links — and does not report "no connections". *)
Theorem C08_survivors_untouched : forall s now dgs ws i l l' x, Inv s ->
  nth_error (links s) i = Some l ->
  nth_error (links (fst (step s (OTick now true dgs ws)))) i = Some l' ->
  l_conn l = true -> l_lr l = Some x -> now - x < cfg_to s ->
  l_conn l' = true /\ l_gen l' = l_gen l /\ l_lr l' = l_lr l /\ l_inf l' = l_inf l /\
  o_err (snd (step s (OTick now true dgs ws))) = false.
Proof.
  intros s now dgs ws i l l' x [Hc _] H1 H2 C L D.
  destruct (LStep_alive _ _ _ _ _ _ _ _ x Hc (step_link_at s _ i l l' H1 H2) C L D) as (AL & Q & F).
  rewrite (live_conn Q), (live_gen Q), (live_lr Q).
  repeat split; try congruence. exact (step_tick_err s now true dgs ws l' (nth_error_In _ _ H2) AL).
Qed.

(** ... and what a pass does to link i is a function of link i alone (plus the configured
    timeout, the mode and the oracles): the faults of the other links do not enter. *)
Theorem C08_tick_is_per_link : forall s now dgs ws i l l',
  nth_error (links s) i = Some l ->
  nth_error (links (fst (step s (OTick now true dgs ws)))) i = Some l' ->
  exists (regrace : bool) classic dg w, (regrace = true -> is_probing (rg s) = true) /\
    l' = tick_link_state (let l0 := set_to l (cfg_to s) in
                          if regrace then set_grace l0 (now + STARTUP_GRACE_MS) else l0) now classic dg w.
Proof. intros s now dgs ws i l l' H1 H2. exact (step_link_at s _ i l l' H1 H2). Qed.

(** Bounded liveness (PARTIAL: under the stated environment).  Link-local: a dead,
    previously established link whose socket can be re-created and which has no failed
    re-creation on record, while no REG1 handshake is pending elsewhere (true whenever a
    survivor is connected); housekeeping passes at most D apart from [prev] on, one of them
    at or after T + 5 s (T >= last attempt).  Then by T + 5 s + D a pass re-creates the
    socket and puts REG2 on the wire; the receiver's REG3, whenever it arrives, makes the
    link connected with clean accounting — i.e. connected by T + 5 s + 2 D (7 s < 30 s for
    the 1 s housekeeping interval) if REG3 arrives before the next pass. *)
Theorem C08_rejoin_bound_partial : forall ts i l g T D prev,
  dead l -> g_pend g = None -> r_last (l_rc l) <> 0 -> r_last (l_rc l) <= T ->
  prev <= T + 5000 -> spaced prev D ts -> (exists t, In t ts /\ T + 5000 <= t) ->
  exists t l', In (t, l', [W_REG2]) (run_ticks i l g ts) /\ t <= T + 5000 + D /\
    forall t3, let l3 := reg3_link l' t3 in
      l_conn l3 = true /\ l_win l3 = WINDOW_DEFAULT /\ l_inf l3 = 0 /\ l_ph l3 = PWarm 0 t3.
Proof.
  intros ts i l g T D prev HD HP HN HT Hprev HS HE.
  destruct (first_due_tick ts i l g T D prev HD HP HN HT Hprev HS HE) as (t & l' & A & B & _).
  exists t, l'. cbn. tauto.
Qed.

(** Why the refresh premise is there (F6, repaired in /repo 260b76c): without the refresh a
    configured 60 s timeout is ignored by an idle sender — the model of the arm without it
    tears link 0 down after 5 s and the monitor rejects that trace. *)
Definition f6_ops (refresh : bool) : list op :=
  [OSetTimeout 60000; OReg3 0 1100; OReg3 1 1100; OKeepalive 1 5900 false;
   OTick 6100 refresh [0; 0] [20000; 20000]].
Theorem C08_unrefreshed_timeout_refuted :
  ok_C08 2 1000 (trace 2 1000 (f6_ops false)) = false /\ ok_C08 2 1000 (trace 2 1000 (f6_ops true)) = true.
Proof. split; vm_compute; reflexivity. Qed.

(** a link dies, is re-created by housekeeping (socket generation 1, REG2 on the wire),
    gets its REG3 and is connected again with clean accounting *)
Definition demo_ops : list op :=
  [OReg3 0 1100; OReg3 1 1100; OKeepalive 1 6000 false; OTick 6100 true [0; 0] [20000; 20000];
   OReg3 0 6150; OTick 7100 true [0; 0] [20000; 20000]].
Example C08_demo_teardown_and_rejoin :
  wf_ops 1000 demo_ops = true /\ all_refresh demo_ops = true /\
  map (fun st => map (fun q => (b_conn q, b_gen q, b_win q, b_inf q, b_ph q)) (s_links st)) (trace 2 1000 demo_ops) =
  [[(true, 0, 20000, 0, 1); (false, 0, 20000, 0, 0)];
   [(true, 0, 20000, 0, 1); (true, 0, 20000, 0, 1)];
   [(true, 0, 20000, 0, 1); (true, 0, 20000, 0, 1)];
   [(false, 1, 20000, 0, 0); (true, 0, 20000, 0, 2)];
   [(true, 1, 20000, 0, 1); (true, 0, 20000, 0, 2)];
   [(true, 1, 20000, 0, 1); (true, 0, 20000, 0, 2)]] /\
  map s_wire (trace 2 1000 demo_ops) = [[[]; []]; [[]; []]; [[]; []]; [[2]; []]; [[]; []]; [[]; []]].
Proof. vm_compute. repeat split; reflexivity. Qed.

(** F8 regression (repaired in /repo 75843c9): pre-registration data on a re-created link,
    a NAK charged to it (window 19900), then REG3 — the link rejoins with the default window *)
Definition f8_ops : list op :=
  [OTick 7000 true [0; 0] [20000; 20000]; OData 7001 (Some 0%nat) true 4 []; OInbound 1 7005 [(19900, 3); (20000, 0)];
   OReg3 0 7010].
Example C08_f8_regression :
  map (fun st => map (fun q => (b_conn q, b_gen q, b_win q, b_inf q)) (s_links st)) (trace 2 1000 f8_ops) =
  [[(false, 1, 20000, 0); (false, 1, 20000, 0)];
   [(false, 1, 20000, 4); (false, 1, 20000, 0)];
   [(false, 1, 19900, 3); (false, 1, 20000, 0)];
   [(true, 1, 20000, 0); (false, 1, 20000, 0)]] /\
  ok_C08 2 1000 (trace 2 1000 f8_ops) = true.
Proof. vm_compute. split; reflexivity. Qed.

(** the liveness premises are satisfiable: a dead link, passes every second *)
Example C08_rejoin_bound_nonvacuous :
  let l := mark_for_recovery (reg3_link (reconnected (link0 0) 1000) 1500) in
  let l := set_rc l (RC 2000 0 1500 0) in
  dead l /\ spaced 2000 1000 [3000; 4000; 5000; 6000; 7000] /\
  map (fun x => (fst (fst x), l_gen (snd (fst x)), snd x)) (run_ticks 0 l reg0 [3000; 4000; 5000; 6000; 7000]) =
  [(3000, 1, []); (4000, 1, []); (5000, 1, []); (6000, 1, []); (7000, 2, [2])].
Proof. vm_compute. repeat split; try discriminate; try reflexivity; try lia. Qed.


(** Lexical facts about the event loop, which no check can run (src/sender/mod.rs, uplink.rs),
    regenerated from the source on every run: the housekeeping arm logs a failed pass and carries on
    — the model's "retried for ever" is about passes that keep coming — and the reader task of a
    replaced socket is aborted before the new one starts, so nothing that arrives on the old socket
    can count as "heard" on the re-created link. *)
Theorem shape_ok_C08 :
  Shape.loop_housekeeping_error_logged_not_fatal = true /\ Shape.reader_restart_aborts_old_reader = true.
Proof. split; reflexivity. Qed.
