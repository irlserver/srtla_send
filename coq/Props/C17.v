(** Props/C17.v — property C17 "Weak-link classifier cannot starve a link forever or
    flap on a blip".  Statements with their short proofs from the lemma files,
    the constant obligations and non-vacuity examples.

    Vocabulary (Model/Classifier.v): [tick st ls] is one call of
    [WeakLinkFilter::classify] on the link vector [ls] from memory [st];
    [verdict st ls l] the classification it returns for link [l];
    [classified ls l] = the link is connected and the tick is not bypassed;
    [signal ls l] = RTT (whole ms) over the chosen tier, or queue building;
    [share_of ls l] = throughput share in integer permille as the code computes it
    (interpretation fixed in DESIGN.md §8: the thresholds are the integer permille
    ones, 250/n and 750/n floored, n = connected links);
    [mem st id] = the filter's memory for link [id] (defaults when absent). *)
From Coq Require Import Floats.
From Srtla Require Import Base Constants FConstants Classifier ClassifierP Run_C17 C17P.
Local Open Scope Z_scope.

(** The literals the property text names, tied to the generated constants. *)
Theorem constants_ok_C17 :
  MIN_TOTAL_BPS_FOR_CLASSIFICATION = 0x1.86ap+16%float /\
  MIN_TOTAL_BPS_FOR_CLASSIFICATION_micro = 100000 * 1000000 /\
  WEAK_SUSTAIN_TICKS = 2 /\ PROBATION_INTERVAL_TICKS = 15 /\ PROBATION_WINDOW_TICKS = 3 /\
  ENTER_FAIR_SHARE_NUMERATOR = 250 /\ LEAVE_FAIR_SHARE_NUMERATOR = 750 /\
  4 * ENTER_FAIR_SHARE_NUMERATOR = 1000 /\ 4 * LEAVE_FAIR_SHARE_NUMERATOR = 3 * 1000.
Proof.
  repeat split; reflexivity.
Qed.

(** [verdict] is what [classify] returns, link by link, in order. *)
Theorem C17_verdicts_are_outputs : forall st ls,
  t_outs (snd (tick st ls)) = map (verdict st ls) ls.
Proof. exact tick_outs. Qed.

(** Clause 1. Never weak while disconnected, or while total throughput is under
    100 kbit/s (or nothing is connected) — from ANY memory state. *)
Theorem C17_never_weak_when : forall st ls l,
  l_conn l = false \/ (total_bps ls <? 0x1.86ap+16)%float = true \/ conn_count ls = 0 ->
  o_weak (verdict st ls l) = false /\
  (o_reason (verdict st ls l) = RH \/ o_reason (verdict st ls l) = RB).
Proof.
  intros st ls l H. rewrite verdict_unclassified.
  - destruct (bypassed ls); cbn; auto.
  - unfold classified. destruct H as [->|H]; [apply andb_false_r|].
    apply bypassed_iff in H. rewrite H. reflexivity.
Qed.

(** ... and the history is cleared: wholly under the floor, per link on a disconnect
    or when the link is not in the vector. *)
Theorem C17_floor_clears_history : forall st ls,
  (total_bps ls <? 0x1.86ap+16)%float = true \/ conn_count ls = 0 -> fst (tick st ls) = [].
Proof.
  intros st ls H. apply bypassed_iff in H. rewrite tick_state, H. reflexivity.
Qed.
Theorem C17_unclassified_forgotten : forall st ls l,
  NoDup (map l_id ls) -> In l ls -> classified ls l = false ->
  mem (fst (tick st ls)) (l_id l) = lst0.
Proof. exact unclassified_forgotten. Qed.
Theorem C17_absent_forgotten : forall st ls id,
  ~ In id (map l_id ls) -> mem (fst (tick st ls)) id = lst0.
Proof.
  intros st ls id H. apply mem_tick_cases; [reflexivity|]. intros l Hin Hid _.
  exfalso. apply H. rewrite <- Hid. apply in_map. exact Hin.
Qed.

(** Clause 2. A delay verdict (weak for HighRtt / QueueBuilding) at a tick needs the
    delay signal on that tick AND on the previous tick, for the same link id, both
    ticks classified — from any memory state, hence after every history. *)
Theorem C17_delay_needs_two : forall st ls1 ls2 l2,
  delay_verdict (verdict (fst (tick st ls1)) ls2 l2) = true ->
  classified ls2 l2 = true /\ signal ls2 l2 = true /\
  exists l1, In l1 ls1 /\ l_id l1 = l_id l2 /\ classified ls1 l1 = true /\ signal ls1 l1 = true.
Proof.
  intros st ls1 ls2 l2 H. apply delay_verdict_needs_streak in H. destruct H as (Hc & Hs & Hst).
  split; [exact Hc|]. split; [exact Hs|]. exact (streak_needs_signal st ls1 (l_id l2) Hst).
Qed.
Theorem C17_delay_never_on_first_tick : forall ls l, delay_verdict (verdict [] ls l) = false.
Proof.
  intros ls l. destruct (delay_verdict (verdict [] ls l)) eqn:H; [|reflexivity].
  apply delay_verdict_needs_streak in H. destruct H as (_ & _ & H). cbn in H. lia.
Qed.
Theorem C17_delay_reason_matches : forall st ls l,
  o_weak (verdict st ls l) = true ->
  (o_reason (verdict st ls l) = RR -> (tier_of ls <? rtt_of l) = true) /\
  (o_reason (verdict st ls l) = RQ -> l_qb l = true).
Proof.
  intros st ls l Hw. rewrite (verdict_classified st ls l (weak_is_classified _ _ _ Hw)) in Hw |- *.
  exact (step_out_reason _ _ _ _ _ Hw).
Qed.

(** The [unwrap()] in the sustained-delay arm cannot panic. *)
Theorem C17_no_unwrap_panic : forall sel l (e : lst),
  (WEAK_SUSTAIN_TICKS <=? match delay_signal sel l with
                          | Some _ => sat_add_u32 (s_ds e) 1
                          | None => 0
                          end) = true ->
  delay_signal sel l <> None.
Proof.
  intros sel l e. destruct (delay_signal sel l); [discriminate|]. cbn. discriminate.
Qed.

(** Clause 3. Memory bounds after every history (no well-formedness needed): the
    share-weak streak stays below 15, the probation counter within 0..3. *)
Theorem C17_state_bounds : forall ops id, entry_ok (mem (state_after [] ops) id).
Proof.
  intros ops. apply state_after_ok. intros id. exact entry_ok_default.
Qed.

(** Inside a probation window the link is reported not weak whatever its signals. *)
Theorem C17_probation_forces_not_weak : forall st ls l,
  0 < s_pr (mem st (l_id l)) -> o_weak (verdict st ls l) = false.
Proof. exact probation_forces_not_weak. Qed.

(** A share-weak verdict (LowShare / NoTraffic) advances the streak by one; the 15th
    resets it and arms a 3-tick window. *)
Theorem C17_share_streak_step : forall st ls l,
  entry_ok (mem st (l_id l)) -> share_verdict (verdict st ls l) = true ->
  classified ls l = true /\ s_pr (mem st (l_id l)) = 0 /\
  ((s_ws (mem st (l_id l)) + 1 < 15 /\ s_ws (entry_after st ls l) = s_ws (mem st (l_id l)) + 1 /\
    s_pr (entry_after st ls l) = 0) \/
   (s_ws (mem st (l_id l)) + 1 = 15 /\ s_ws (entry_after st ls l) = 0 /\
    s_pr (entry_after st ls l) = 3)).
Proof. exact share_streak_step. Qed.

(** After any history, no link collects more than 15 consecutive share-weak verdicts... *)
Theorem C17_at_most_15_share_weak : forall ops lss id,
  wf_ops lss -> all_share_weak id (state_after [] ops) lss -> (length lss <= 15)%nat.
Proof.
  intros ops lss id Hwf Hall.
  apply (share_weak_run_15 id lss (state_after [] ops) (C17_state_bounds ops) Hwf Hall).
Qed.

(** ... and a run of 15 is followed by a not-weak verdict on each of the next three
    ticks, for as long as the link stays classified (a disconnect or a floor crossing
    inside the window forgets the link: clause 1 then applies and it starts afresh). *)
Theorem C17_probation_after_15 : forall ops lss nxt id,
  wf_ops lss -> wf_ops nxt -> all_share_weak id (state_after [] ops) lss ->
  length lss = 15%nat -> (length nxt <= 3)%nat ->
  window_not_weak id (state_after (state_after [] ops) lss) nxt.
Proof.
  intros ops lss nxt id Hwf Hwn Hall Hlen Hn. apply probation_window; [exact Hwn|].
  destruct (share_weak_run_15 id lss (state_after [] ops) (C17_state_bounds ops) Hwf Hall) as (_ & Harm).
  rewrite (Harm Hlen). lia.
Qed.

(** Clause 4. Entering weak-for-low-share needs share < 250/n; staying needs
    share < 750/n; a previously weak link reported not weak has share >= 750/n or is
    inside a probation window. *)
Theorem C17_enter_leave : forall st ls l,
  classified ls l = true ->
  let n := conn_count ls in
  let pw := s_pw (mem st (l_id l)) in
  (low_share_verdict (verdict st ls l) = true -> pw = false -> share_of ls l < 250 / n) /\
  (low_share_verdict (verdict st ls l) = true -> pw = true -> share_of ls l < 750 / n) /\
  (o_weak (verdict st ls l) = false -> pw = true ->
     750 / n <= share_of ls l \/ 0 < s_pr (mem st (l_id l))) /\
  (o_weak (verdict st ls l) = false -> pw = false ->
     250 / n <= share_of ls l \/ 0 < s_pr (mem st (l_id l))).
Proof.
  intros st ls l Hc. cbv zeta. rewrite (verdict_classified st ls l Hc).
  repeat split; intros H Hpw;
    [apply step_out_low in H|apply step_out_low in H|apply step_out_healthy in H|apply step_out_healthy in H];
    unfold threshold in H; rewrite Hpw in H; exact H.
Qed.

(** "previously weak" is exactly: the last verdict was weak (and the link has been
    classified on that tick; otherwise it is forgotten, i.e. not previously weak). *)
Theorem C17_prev_weak_is_last_verdict : forall st ls l,
  NoDup (map l_id ls) -> In l ls ->
  s_pw (mem (fst (tick st ls)) (l_id l)) = o_weak (verdict st ls l).
Proof.
  intros st ls l Hnd Hin. destruct (classified ls l) eqn:Hc.
  - rewrite (mem_after_tick st ls l Hnd Hin Hc), (entry_classified st ls l Hc),
      (verdict_classified st ls l Hc). reflexivity.
  - rewrite (unclassified_forgotten st ls l Hnd Hin Hc), (unclassified_not_weak st ls l Hc).
    reflexivity.
Qed.

Theorem C17_reported_share_and_threshold : forall st ls l,
  classified ls l = true ->
  o_share (verdict st ls l) = share_of ls l /\
  o_thr (verdict st ls l) = (if s_pw (mem st (l_id l)) then 750 / conn_count ls else 250 / conn_count ls).
Proof.
  intros st ls l Hc. rewrite (verdict_classified st ls l Hc). split; reflexivity.
Qed.

(** Every trace of the model satisfies the monitor (the property text as a
    boolean over the observable trace), for every history with distinct ids per tick. *)
Theorem C17_monitor_holds : forall ops, wf_ops ops -> ok_C17 (run ops) = true.
Proof.
  intros ops Hwf. unfold ok_C17, run. rewrite (sim_run ops [] []); [reflexivity| |exact Hwf].
  intros id. exact mem_rel_default.
Qed.

Theorem C17_wf_decided : forall ops, wf_opsb ops = true -> wf_ops ops.
Proof.
  unfold wf_opsb, wf_ops. intros ops H. apply Forall_forall. intros ls Hin.
  apply nodupb_NoDup. rewrite forallb_forall in H. apply H. exact Hin.
Qed.

Definition exA : lin := L 1 true 990000 20 false.        (* 99 % of the traffic, 20 ms *)
Definition exB : lin := L 2 true 10000 30 false.         (* 1 %: under 250/2 = 125 permille *)
Definition exA2 : lin := L 1 true 550000 20 false.
Definition exBq : lin := L 2 true 450000 30 true.        (* 45 %: above 750/2 = 375 permille; queue building *)
Definition exBok : lin := L 2 true 450000 30 false.
Definition weak_of (id : Z) (tr : list (list lin * tout)) : list bool :=
  map (fun p => match find_out id (t_outs (snd p)) with Some o => o_weak o | None => false end) tr.

(** A starved link: 15 share-weak verdicts, 3 forced not-weak, weak again. *)
Example C17_ex_probation_cycle :
  weak_of 2 (run (repeat [exA; exB] 20)) =
  repeat true 15 ++ repeat false 3 ++ repeat true 2.
Proof. vm_compute. reflexivity. Qed.

Example C17_ex_run_of_15 : all_share_weak 2 [] (repeat [exA; exB] 15) /\ wf_ops (repeat [exA; exB] 15).
Proof.
  split.
  - apply (low_share_run 2 [exA; exB] exB).
    + apply nodupb_NoDup. reflexivity.
    + right. left. reflexivity.
    + reflexivity.
    + vm_compute. reflexivity.
    + vm_compute. reflexivity.
    + intros e. unfold threshold. destruct (s_pw e); vm_compute; reflexivity.
    + exact entry_ok_default.
    + reflexivity.
    + discriminate.
  - apply C17_wf_decided. vm_compute. reflexivity.
Qed.

(** A one-tick queue blip does not mark the link weak; two consecutive ticks do. *)
Example C17_ex_blip_filtered :
  weak_of 2 (run [[exA2; exBq]; [exA2; exBok]; [exA2; exBq]; [exA2; exBq]; [exA2; exBq]; [exA2; exBok]]) =
  [false; false; false; true; true; false].
Proof. vm_compute. reflexivity. Qed.

(** Under the floor everything is Bypassed and memory is dropped. *)
Example C17_ex_floor :
  map (fun o => (o_weak o, o_reason o))
      (t_outs (snd (tick [(2, E true 5 9 0)] [L 1 true 99999 20 false; L 2 true 0 3000 true]))) =
  [(false, RB); (false, RB)] /\
  fst (tick [(2, E true 5 9 0)] [L 1 true 99999 20 false; L 2 true 0 3000 true]) = [].
Proof. vm_compute. split; reflexivity. Qed.

(** The monitor is not trivially true: one offending trace per clause. *)
Example C17_ex_monitor_rejects :
  (* 1: weak while disconnected *)
  mon_from [] [([L 1 true 990000 20 false; L 2 false 10000 30 false],
                TO 200 500 [V 1 false RH 1000 250; V 2 true RL 0 0] [])] = 1%N /\
  (* 2: delay verdict on the first tick the signal shows *)
  mon_from [] [([exA; exBq], TO 200 500 [V 1 false RH 687 125; V 2 true RQ 312 125] [])] = 2%N /\
  (* 4: entered LowShare at share 312 >= 125 *)
  mon_from [] [([exA; exBok], TO 200 500 [V 1 false RH 687 125; V 2 true RL 312 125] [])] = 4%N /\
  (* 5: left LowShare at share 312 < 375 outside probation *)
  mon_from [] [([exA; exB], TO 200 500 [V 1 false RH 990 125; V 2 true RL 10 125] []);
               ([exA; exBok], TO 200 500 [V 1 false RH 687 125; V 2 false RH 312 375] [])] = 5%N /\
  (* 3: a 16th consecutive share-weak verdict *)
  mon_from [] (map (fun _ => ([exA; exB], TO 200 500 [V 1 false RH 990 125; V 2 true RL 10 375] []))
                   (seq 0 16)) = 3%N.
Proof. vm_compute. repeat split; reflexivity. Qed.
