(** Props/C06.v — property C06 "Congestion windows stay in range and move in the
    right direction".  Statements; the longer proofs are in Proofs/C06P.v. *)
From Srtla Require Import Base Constants Shape Conn Run_Core ConnP CoreRunP Run_C06 C06P.

(** The numbers the property text names, against the constants regenerated from the source. *)
Theorem constants_ok_C06 :
  WINDOW_FLOOR = 1000 /\ WINDOW_CEIL = 60000 /\ WINDOW_DEFAULT = 20000 /\ WINDOW_DECR = 100 /\
  WINDOW_INCR = 30 /\ WINDOW_MULT = 1000 /\ FAST_RECOVERY_ENTER_WINDOW = 2000 /\
  FAST_RECOVERY_DISABLE_WINDOW = 12000.
Proof. exact consts. Qed.

(** Classic mode never applies time-based recovery: the only call of
    perform_window_recovery in the housekeeping arm sits under `if !classic`
    (lexical fact regenerated from src/sender/housekeeping.rs on every run). *)
Theorem C06_classic_no_time_recovery : hk_recovery_all_guarded_by_not_classic = true.
Proof. reflexivity. Qed.

(** [wf_op]: the harness's state-setting op may only install an in-range window
    (= "starting from any window in [1000,60000]"); every real op is unrestricted:
    any in-flight count up to i32::MAX, any times, any sequence numbers. *)
Theorem C06_initial : forall ids, Forall (fun c => window c = 20000) (links (init ids)).
Proof. intros ids. unfold init. cbn. induction ids; cbn; constructor; auto. Qed.

Theorem C06_range_inv : forall ids ops, Forall wf_op ops ->
  Forall (fun c => 1000 <= window c <= 60000) (links (run_from (init ids) ops)).
Proof.
  intros ids ops H. pose proof (reachable_inv ids ops H) as HI. unfold SInv in HI.
  eapply Forall_impl; [|exact HI]. intros c [Hw _]. exact Hw.
Qed.

(** No unchecked i32 operation of the window rules can overflow (= no debug-build panic). *)
Theorem C06_no_panic : forall ids ops, Forall wf_op ops ->
  Forall (fun c => ovf c = false) (links (run_from (init ids) ops)).
Proof.
  intros ids ops H. pose proof (reachable_inv ids ops H) as HI. unfold SInv in HI.
  eapply Forall_impl; [|exact HI]. intros c [_ Ho]. exact Ho.
Qed.

Theorem C06_reset_default : forall c,
  window (mark_for_recovery c) = 20000 /\ window (reset_for_reconnect c) = 20000.
Proof. intros c. split; reflexivity. Qed.

(** direction + fast-recovery transitions of every window-changing operation *)
Theorem C06_nak_never_raises : forall c seq now, Inv c ->
  down_rel c (fst (handle_nak c seq now)) /\ down_rel c (cc_nak c now).
Proof. intros. split; [apply nak_eff|apply cc_nak_eff]; assumption. Qed.

Theorem C06_ack_and_recovery_never_lower : forall c seq cl now inf v, Inv c ->
  up_rel c (fst (handle_srtla_ack_specific c seq cl now)) /\ up_rel c (cc_ack c cl inf) /\
  up_rel c (perform_window_recovery c now v) /\
  (Inv (handle_srtla_ack_global c) /\ window c <= window (handle_srtla_ack_global c) /\
   fast (cg (handle_srtla_ack_global c)) = fast (cg c)) /\
  window (handle_srt_ack c seq) = window c.
Proof.
  intros c seq cl now inf v H. repeat split;
  try (apply specific_eff; assumption); try (apply cc_ack_eff; assumption);
  try (apply recovery_link_eff; assumption); try (apply global_eff; assumption).
  unfold handle_srt_ack. destruct (_ <=? _); reflexivity.
Qed.

(** Every op of every history keeps every link inside the per-link clauses of the monitor
    (range, teardown -> 20000, NAK never raises, ACK/recovery never lowers, fast-recovery
    entered only by a NAK ending at <= 2000 and left only at >= 12000 or by a link reset). *)
Theorem C06_step_clauses : forall s o, wf_op o -> SInv s ->
  SInv (step s o) /\ c06_links o 0 (obs_state s) (obs_state (step s o)) = 0%N.
Proof. exact step_inv_and_clauses. Qed.

(** The model's own trace of any history passes the monitor that the check
    evaluates on the implementation's traces. *)
Theorem C06_monitor_holds : forall ids ops, Forall wf_op ops ->
  check_with mon_C06 (model_case ids ops) = 0%N.
Proof. exact monitor_holds. Qed.

Example C06_wf_nonvacuous :
  Forall wf_op [OSetConn 0 true (Some 5); OSetWindow 0 2100; OCcNak 0 10; OCcNak 0 20;
                OCcAck 0 false 2147483647; ORecovery 0 100000 true; OMarkRecovery 0].
Proof. repeat constructor; cbn; lia. Qed.
Example C06_fast_recovery_reached :
  map (fun c => (window c, fast (cg c)))
      (links (run_from (init [7]) [OSetConn 0 true (Some 5); OSetWindow 0 2100; OCcNak 0 10; OCcNak 0 20])) =
  [(1900, true)].
Proof. vm_compute. reflexivity. Qed.
Example C06_monitor_rejects_bad_trace :
  check_with mon_C06 {| c_ids := [7]; c_init := obs_state (init [7]);
                        c_steps := [(OCcNak 0 10, [([0; 20100; 0; -2147483648; -1; 0; 1; 10; 0; 0; 0; 0; 0], [])])] |}
  <> 0%N.
Proof. vm_compute. discriminate. Qed.
