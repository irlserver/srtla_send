(** C04 "Stream data is only ever routed onto eligible uplinks".
    The proofs are in Proofs/C04P.v; the witnesses are computed here. *)
From Coq Require Import Floats.
From Srtla Require Import Base Constants FConstants Shape Stall StallSel Route Run_C04 C04P.
Local Open Scope Z_scope.

(** Lexical facts about the override site, regenerated from src/sender/packet_handler.rs;
    the probe cadence the text names. *)
Theorem constants_ok_C04 :
  override_present = true /\ override_mode_guarded = true /\ override_uses_eligible_filter = true /\
  loop_passes_reg_has_connected = true /\
  STALL_PROBE_ONE_IN_N = 100.
Proof. repeat split; reflexivity. Qed.

(** eligible = completed registration since its last reset (phase is not Registering), not timed
    out, not stall-gated = exactly what both selectors refuse to skip *)
Theorem C04_eligible_is_not_skipped : forall now l, eligible now l = negb (skipped now l).
Proof. exact eligible_not_skipped. Qed.

(** Normal scheduling and score hysteresis, both modes, any settings, any link states, any
    quality / cap oracle values: the chosen uplink is eligible in the post-state. *)
Theorem C04_selector_eligible : forall cfg last now ins ls ls' k,
  select cfg last now ins ls = (ls', Some k) ->
  exists l, nthZ ls' k = Some l /\ eligible now l = true.
Proof. exact select_elig. Qed.

(** ... and so is the result after the keyframe-window / retransmit override, for every packet
    kind and with the critical window open or closed. *)
Theorem C04_route_eligible : forall cfg last now ins critical p ls ls' k,
  route true cfg last now ins critical p ls = (ls', Some k) ->
  exists l, nthZ ls' k = Some l /\ eligible now l = true.
Proof. exact route_elig. Qed.

(** The whole arm (decision, queueing of the unique copy, duplicate probes) passes the monitor
    the check evaluates on the implementation: the unique copy lands on an eligible uplink; any
    other uplink whose queue grows is a stall-gated, connected probe target and the packet is
    data; nothing is queued when nothing is routed. *)
Theorem C04_monitor_holds : forall cfg last now ins critical p ls,
  mon_C04 (model_case cfg last now ins critical p ls) = 0%N.
Proof. exact handle_monitor. Qed.

(** The override WITHOUT the eligibility filter (the code before the `fix:` commit) is refuted:
    both links scored once (caches 1.1), link 1 then takes a NAK (0.98), link 0 stalls with 39
    packets in flight and is gated; a retransmit-flagged data packet is routed onto gated link 0. *)
Definition f3_links : list link :=
  [mkL (mkA true 20029 39 39 (Some 103100) None None 100000 0 0 2 100000 105000 0 0 [0;0;0;0;0;0;0;0;0])
       (mkG false 0 0 0 0 false 0) (mkX 0 false false 0 0 false 0) (mkC 5000 0x1.199999999999ap+0 100000);
   mkL (mkA true 19900 0 0 (Some 103100) None None 0 1 0 2 100000 105000 0 0 [100010;0;0;0;0;0;0;0;0])
       (mkG false 0 0 0 0 false 0) (mkX 0 false false 0 0 false 0) (mkC 5000 0x1.199999999999ap+0 100000)].
Definition f3_cfg : config := mkCfg false true true 32 3000 5000.
Definition f3_ins : list selin := [mkSI 0x1.199999999999ap+0 false; mkSI 0x1.f5c28f5c28f5cp-1 false].

Theorem C04_unfiltered_override_refuted :
  exists ls', route false f3_cfg (Some 1) 103200 f3_ins false (mkP true true) f3_links = (ls', Some 0) /\
              match nthZ ls' 0 with Some l => eligible 103200 l = false | None => False end.
Proof. eexists. split; [vm_compute; reflexivity|vm_compute; reflexivity]. Qed.

Example C04_same_case_now_eligible :
  snd (route true f3_cfg (Some 1) 103200 f3_ins false (mkP true true) f3_links) = Some 1.
Proof. vm_compute. reflexivity. Qed.

Example C04_monitor_rejects_gated_target :
  mon_C04 (mkCase f3_cfg (Some 1) 103200 f3_ins false (mkP true true) f3_links
                  (fst (handle false f3_cfg (Some 1) 103200 f3_ins false (mkP true true) f3_links)) (Some 0)) = 1%N.
Proof. vm_compute. reflexivity. Qed.

(** Fault histories (link dies, is soft-reset, re-connects, re-registers) with a flush tick in
    between: in the abstract queue model, where a reset empties the link's coalescing queue, and on
    histories in which the scheduler's choice is a connected link ([fops_wf]: assumed here,
    [C04_route_eligible] does not give it), no link ever puts stream data on the wire while it is
    down.  The same clause ([mon_fault], clause 5) is evaluated on the implementation's fault traces
    captured on real sockets. *)
Theorem C04_fault_model_holds : forall s ops, finv s -> fops_wf s ops -> mon_fault (ftrace s ops) = 0%N.
Proof. exact fault_model_monitor. Qed.

(** non-vacuity: a two-link history with a soft reset of the loaded link between routing and the tick *)
Example C04_fault_model_example :
  let s := [(true, 0); (true, 0)] in
  let ops := [FClient (Some 0%nat) false; FClient (Some 0%nat) false; FSoftReset 0%nat; FFlush; FReg3 0%nat;
              FClient (Some 1%nat) true] in
  finv s /\ fops_wf s ops /\ map fs_tx (ftrace s ops) = [[0;0];[0;0];[0;0];[0;0];[0;0];[0;1]].
Proof.
  cbn zeta. split; [repeat constructor; cbn; congruence|].
  split; [|vm_compute; reflexivity].
  cbn. repeat split; eexists; (split; [reflexivity|reflexivity]).
Qed.

(** ... and the monitor rejects a trace in which the reset link flushes what it had queued *)
Example C04_fault_monitor_rejects :
  mon_fault [mkFS 0 [true;true] [0;0] [2;0]; mkFS 2 [true;true] [0;0] [2;0]; mkFS 1 [false;true] [2;0] [0;0]] = 5%N.
Proof. vm_compute. reflexivity. Qed.
