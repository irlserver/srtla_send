(** Props/C10.v — C10 "Classic mode reproduces the reference srtla_send algorithm".

    Reference  = Model/ClassicRef.v (written from the property text, literals 29 / 1000 / 100 /
                 1000..60000 / +1, first maximum of window / (in-flight + queued + 1)).
    Model      = Model/Classic.v (the shell arms with mode = Classic, stall_deselect = false)
                 over Model/Conn.v (per-link accounting).
    Monitor    = Run/Run_C10.v [ok_C10]: the reference replayed in lock-step on an observed trace.
    Invariant  = Proofs/ClassicP.v [inv_link]: in_flight = |packet log|, log keys distinct,
                 0 <= window <= i32::MAX - WINDOW_INCR.  [wf_op] only bounds XSetWindow by that range. *)
From Coq Require Import ZifyBool Permutation.
From Srtla Require Import Base Constants Conn ConnP Classic ClassicRef ClassicP ClassicInvP ClassicEvP Run_C10 ClassicRunP.
From Srtla Require Shape.

(** the literals of the property text, and the structural facts read off the source *)
Theorem constants_ok_C10 :
  WINDOW_INCR - 1 = 29 /\ WINDOW_MULT = 1000 /\ WINDOW_DECR = 100 /\
  WINDOW_MIN * WINDOW_MULT = 1000 /\ WINDOW_MAX * WINDOW_MULT = 60000 /\
  Shape.override_present = true /\ Shape.override_mode_guarded = true /\
  Shape.hk_recovery_all_guarded_by_not_classic = true.
Proof. repeat split; reflexivity. Qed.

(** classic::select_connection (after apply_stall_gate with the guard off) = the reference's
    first maximum of window / (in-flight + queued + 1) over the usable links, on every state *)
Theorem C10_select_refines_ref : forall l now tmo,
  Forall inv_x l -> select l now tmo = ref_select (map (rl_of now tmo) l).
Proof. exact select_refines_ref. Qed.

(** ... hence insensitive to everything the reference does not read: NAK history, RTT, quality
    cache, stall latch / gate flags, phase beyond "registered", batch regime, grace deadline, the
    tracker, the critical window.  (The previous choice is not even an input of the model:
    classic::select_connection does not take last_idx.) *)
Theorem C10_insensitive : forall l l' now tmo,
  Forall inv_x l -> Forall inv_x l' ->
  map (rl_of now tmo) l = map (rl_of now tmo) l' -> select l now tmo = select l' now tmo.
Proof. intros l l' now tmo H H' E. rewrite !select_refines_ref by assumption. rewrite E. reflexivity. Qed.

(** the shell's routing (selection + best-path override as it stands in the source) sends every
    packet kind — plain, retransmit-flagged, inside a critical window, control — where the
    reference says *)
Theorem C10_route_refines_ref : forall s seq retx now tmo,
  Inv s -> route Shape.override_mode_guarded s seq retx now tmo = ref_select (map (rl_of now tmo) (xs s)).
Proof. intros s seq retx now tmo H. exact (select_refines_ref (xs s) now tmo H). Qed.

(** without the mode guard the override breaks the property (DESIGN §8 F5, fixed in /repo by
    401f9e7): the witness is replayed on the real shell by the harness on every run *)
Theorem C10_unguarded_override_refuted : exists s seq retx now tmo,
  Inv s /\ route false s seq retx now tmo <> ref_select (map (rl_of now tmo) (xs s)).
Proof.
  exists f5_state, (Some 8), true, 1002, 5000. split; [|vm_compute; discriminate].
  apply Inv_final; [apply Inv_init|].
  repeat (apply Forall_cons; [cbn [wf_op]; try exact I; try (rewrite WB_val; lia)|]). apply Forall_nil.
Qed.

(** one SRTLA-acknowledged packet: the model's event (arrival-first earner, +29 rule on the
    remaining in-flight, +1 on every connected link that has received, caps) is the reference's *)
Theorem C10_srtla_ack_refines_ref : forall cs als idx seq now,
  Forall2 arel cs als -> Forall inv_link cs ->
  Forall2 arel (srtla_ack_event cs idx seq true now) (ref_srtla_ack_one idx als seq) /\
  Forall inv_link (srtla_ack_event cs idx seq true now).
Proof. intros. split; [apply srtla_ack_event_ref|apply srtla_ack_event_inv]; assumption. Qed.

(** one NAK: every link's window drops by 100 (floor 1000) per log entry the NAK retired on it,
    and not otherwise *)
Theorem C10_nak_refines_ref : forall cs t seq now,
  Forall inv_link cs ->
  Forall2 nrel cs (fst (attribute_nak cs t seq now)) /\ Forall inv_link (fst (attribute_nak cs t seq now)).
Proof. exact attribute_nak_step. Qed.

(** no time-based recovery: a housekeeping tick leaves every window alone, whatever the time *)
Theorem C10_no_recovery : forall g s now bs,
  map (fun x => window (core x)) (xs (fst (xstep g s (XHousekeep now bs)))) =
  map (fun x => window (core x)) (xs s).
Proof. intros g s now bs. cbn [xstep quiet with_xs fst xs]. rewrite !cores_window, put_bsizes_cores. reflexivity. Qed.

(** every step of the model passes the monitor (i.e. agrees with the reference on the chosen link
    and on all windows) and keeps the invariant *)
Theorem C10_window_refines_ref : forall s o,
  Inv s -> wf_op o ->
  mon_step o (obs_shell s) (obs_step (snd (xstep true s o)) (fst (xstep true s o))) = 0%N /\
  Inv (fst (xstep true s o)).
Proof. exact step_ok. Qed.

(** for 1..n links and every history of routed packets, flushes, SRTLA ACKs, cumulative
    ACKs, NAKs, housekeeping ticks and set-up ops, from any window vector in range, the model's own
    trace satisfies the monitor *)
Theorem C10_monitor_holds : forall n g ops,
  Forall wf_op ops ->
  ok_C10 (obs_shell (xinit n g)) (model_trace Shape.override_mode_guarded (xinit n g) ops) = true.
Proof.
  intros n g ops H. unfold ok_C10. change Shape.override_mode_guarded with true.
  rewrite run_mon_model; [reflexivity|apply Inv_init|exact H].
Qed.

Definition ex_ops : list xop :=
  [XUp 0 1000; XUp 1 1000; XSetWindow 0 10000; XSetWindow 1 40000;
   XPkt (Some 7) false 1001 5000; XPkt (Some 8) true 1002 5000; XCritical 1500;
   XPkt (Some 9) false 1003 5000; XPkt None false 1004 5000; XFlush 1020; XSetWindow 1 1999;
   XSrtlaAck 1 [7; 8] 1030; XNak 0 [9] 1040; XNak 1 [9] 1041; XHousekeep 9000 [4; 4];
   XPkt (Some 10) false 9001 5000].

Example ex_wf : Forall wf_op ex_ops.
Proof. repeat (apply Forall_cons; [cbn [wf_op]; try exact I; try (rewrite WB_val; lia)|]). apply Forall_nil. Qed.

(** plain, retransmit-flagged and critical-window packets all go to link 1 (score 40000, 20000,
    13333 against 10000); the control packet meets a 10000 : 10000 tie and takes link 0; the earned
    ACK at window 1999 with 2 left in flight gets +29, the next one (1 left) does not; both links get
    +1 per acknowledged packet; the NAK costs link 1 (the carrier) 100; the repeated NAK and the
    housekeeping tick 8 s later change nothing; with both links silent for 5 s nothing is usable *)
Example ex_run :
  map (fun t => (fst (snd (fst t)), map (fun x => window (core x)) (xs (snd t))))
      (xrun Shape.override_mode_guarded (xinit 2 0) ex_ops) =
  [(None, [20000; 20000]); (None, [20000; 20000]); (None, [10000; 20000]); (None, [10000; 40000]);
   (Some 1%nat, [10000; 40000]); (Some 1%nat, [10000; 40000]); (None, [10000; 40000]);
   (Some 1%nat, [10000; 40000]); (Some 0%nat, [10000; 40000]); (None, [10000; 40000]);
   (None, [10000; 1999]); (None, [10002; 2030]); (None, [10002; 1930]); (None, [10002; 1930]);
   (None, [10002; 1930]); (None, [10002; 1930])].
Proof. vm_compute. reflexivity. Qed.

Example ex_rules :
  ref_ack_earned 1999 2 = 2028 /\ ref_ack_earned 2000 2 = 2000 /\ ref_ack_earned 59990 100 = 60000 /\
  ref_ack_global true true 60000 = 60000 /\ ref_ack_global true false 5000 = 5000 /\
  ref_nak 1050 = 1000 /\ ref_nak 20000 = 19900.
Proof. repeat split; reflexivity. Qed.

(** the monitor is not vacuous: it rejects a packet on the wrong link (2), a wrong ACK rule (3), an
    uncharged / overcharged NAK (4), a window that moves on a flush (5), time-based recovery (6) *)
Definition p2 : list lobs :=
  [([1; 0; 10000; 1; 1000; 1000; 0; 16], ([], [], 1%float)); ([1; 0; 40000; 1; 1000; 1000; 0; 16], ([5], [], 1%float))].
Definition with_wins (a b : Z) : list lobs :=
  [([1; 0; a; 1; 1000; 1000; 0; 16], ([], [], 1%float)); ([1; 0; b; 1; 1000; 1000; 0; 16], ([5], [], 1%float))].
Example ex_monitor_rejects :
  mon_step (XPkt (Some 8) true 1002 5000) p2 (0, [0; 0], p2) = 2%N /\
  mon_step (XPkt (Some 8) true 1002 5000) p2 (1, [0; 0], p2) = 0%N /\
  mon_step (XSrtlaAck 0 [77] 1002) p2 (-1, [0; 0], with_wins 10030 40001) = 3%N /\
  mon_step (XSrtlaAck 0 [77] 1002) p2 (-1, [0; 0], with_wins 10001 40001) = 0%N /\
  mon_step (XNak 0 [77] 1002) p2 (-1, [0; 0], with_wins 9900 40000) = 4%N /\
  mon_step (XFlush 1002) p2 (-1, [0; 0], with_wins 10000 40029) = 5%N /\
  mon_step (XHousekeep 9000 [16; 16]) p2 (-1, [0; 0], with_wins 10030 40000) = 6%N.
Proof. vm_compute. repeat split; reflexivity. Qed.
