(** Props/C05.v — property C05 "A NAK is charged once, and only to a link that
    carried the packet".  Statements; the longer proofs are in Proofs/C05P.v. *)
From Srtla Require Import Base Constants Conn Run_Core ConnP CoreRunP Run_C02 SetP C02P Run_C05 C05P.

Theorem constants_ok_C05 :
  WINDOW_DECR = 100 /\ WINDOW_FLOOR = 1000 /\ SEQUENCE_TRACKING_MAX_AGE_MS = 5000 /\ SEQ_TRACKING_SIZE = 16384.
Proof. repeat split; reflexivity. Qed.

(** One NAK changes at most one link — by [handle_nak] — and that link held the number. *)
Theorem C05_at_most_one_charge : forall s seq now, SInv2 s ->
  exists l', links (step s (ONak seq now)) = l' /\
  (l' = links s \/
   exists k c, nth_error (links s) k = Some c /\ log_mem seq (log c) = true /\
               l' = upd k (fun x => fst (handle_nak x seq now)) (links s)).
Proof.
  intros s seq now _. eexists; split; [reflexivity|]. cbn [step links].
  destruct (attribute_nak_cases (links s) (trk s) seq now) as [E|(k & c & Hn & Hm & E & _)]; [left; exact E|].
  right. exists k, c. auto.
Qed.

(** The charge: one loss count (saturating), window - 100 floored at 1000, the number leaves
    the log, one in-flight slot. *)
Theorem C05_exact_charge : forall c seq now, Inv2 c -> log_mem seq (log c) = true ->
  exact_charge seq (obs_link c) (obs_link (fst (handle_nak c seq now))) = true.
Proof. exact exact_charge_nak. Qed.

(** While the tracker still names an existing link as the carrier, only that link can be
    charged — whatever the other links' logs contain (probe copies, re-routes). *)
Theorem C05_remembered_owner_exclusive : forall s seq now id pos c,
  trk_get (trk s) seq now = Some id -> find_pos id (links s) 0 = Some pos -> nth_error (links s) pos = Some c ->
  links (step s (ONak seq now)) =
    if log_mem seq (log c) then upd pos (fun x => fst (handle_nak x seq now)) (links s) else links s.
Proof.
  intros s seq now id pos c Eg Ep En. cbn [step links]. unfold attribute_nak. rewrite Eg, Ep, En.
  pose proof (nak_found c seq now) as Hfound.
  destruct (handle_nak c seq now) as [c' found]. cbn [snd] in Hfound. subst found.
  destruct (log_mem seq (log c)); reflexivity.
Qed.

(** A NAK for a number a link does not hold leaves that link untouched (so an unknown NAK,
    or a repeated one while the owner is remembered, changes nothing). *)
Theorem C05_unknown_or_repeated_noop : forall c seq now, log_mem seq (log c) = false -> fst (handle_nak c seq now) = c.
Proof. exact nak_absent. Qed.

(** The tracker answers only for the exact number stored: a colliding newer number displaces it. *)
Theorem C05_displacement : forall t seq id now seq2 id2 now2,
  slot seq2 = slot seq -> seq2 <> seq -> trk_get (trk_insert (trk_insert t seq id now) seq2 id2 now2) seq now2 = None.
Proof.
  intros t seq id now seq2 id2 now2 Hs Hne. unfold trk_get, trk_insert. cbn [trk_find]. rewrite Hs, Z.eqb_refl.
  replace (seq2 =? seq) with false by lia. rewrite andb_false_r. reflexivity.
Qed.

Theorem C05_monitor_holds : forall ids ops, Forall wf2 ops -> check_with mon_C05 (model_case ids ops) = 0%N.
Proof. exact monitor_holds5. Qed.

Example C05_probe_copy_not_charged :
  map (fun c => (nak_count (cg c), window c, in_flight c))
      (links (run_from (init [11; 12])
         [OTrack 0 7 100; ORegister 0 7 100; ORegister 1 7 100; ONak 7 200; ONak 7 201])) =
  [(1, 19900, 0); (0, 20000, 1)].
Proof. vm_compute. reflexivity. Qed.
Example C05_expired_record_falls_back :
  map (fun c => nak_count (cg c))
      (links (run_from (init [11; 12]) [OTrack 1 7 100; ORegister 0 7 100; ORegister 1 7 100; ONak 7 5101])) = [1; 0].
Proof. vm_compute. reflexivity. Qed.
Example C05_monitor_rejects_double_charge :
  check_with mon_C05 {| c_ids := [11; 12]; c_init := obs_state (init [11; 12]);
     c_steps := [(ORegister 0 7 1, [([0; 20000; 1; -2147483648; -1; 0; 0; 0; 0; 0; 0; 0; 0], [7]); ([0; 20000; 0; -2147483648; -1; 0; 0; 0; 0; 0; 0; 0; 0], [])]);
                 (ONak 7 2, [([0; 19900; 0; -2147483648; -1; 0; 1; 2; 0; 0; 0; 0; 0], []); ([0; 19900; 0; -2147483648; -1; 0; 1; 2; 0; 0; 0; 0; 0], [])])] |} <> 0%N.
Proof. vm_compute. discriminate. Qed.
