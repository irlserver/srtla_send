(** Props/C15.v — property C15 "Wire codec is total, bounded and matches the
    SRTLA/SRT layouts".  Statements with their short proofs from Proofs/WireP.v and
    Proofs/C15P.v, constant obligations and non-vacuity examples. *)
From Srtla Require Import Base Constants Wire WireSpec WireP Run_C15 C15P.

(** Constants the property names, tied to the generated file. *)
Theorem constants_ok_C15 :
  SRTLA_TYPE_REG1_LEN = 258 /\ SRTLA_TYPE_REG2_LEN = 258 /\ SRTLA_TYPE_REG3_LEN = 2 /\
  SRTLA_ID_LEN = 256 /\ NAK_EXPAND_CAP = 1000 /\ NAK_RANGE_CAP = NAK_EXPAND_CAP /\
  SRTLA_KEEPALIVE_EXT_LEN = 38 /\
  SRTLA_TYPE_KEEPALIVE = 36864 /\ SRTLA_TYPE_ACK = 37120 /\ SRTLA_TYPE_REG1 = 37376 /\
  SRTLA_TYPE_REG2 = 37377 /\ SRTLA_TYPE_REG3 = 37378 /\ SRTLA_TYPE_REG_ERR = 37392 /\
  SRTLA_TYPE_REG_NGP = 37393 /\ SRT_TYPE_ACK = 32770 /\ SRT_TYPE_NAK = 32771 /\ MTU = 1500.
Proof. repeat split; reflexivity. Qed.

(** Every decoder returns (no out-of-bounds index, no fuel exhaustion) on every byte list. *)
Theorem C15_total : forall b : list Z,
  total (get_packet_type b) /\ total (get_srt_sequence_number b) /\
  total (is_srt_data_retransmit b) /\ total (extract_keepalive_timestamp b) /\
  total (extract_keepalive_conn_info b) /\ total (parse_srt_ack b) /\
  total (parse_srt_nak b) /\ total (parse_srtla_ack b) /\
  total (is_srtla_reg1 b) /\ total (is_srtla_reg2 b) /\ total (is_srtla_reg3 b).
Proof.
  intro b. repeat split;
  [eexists; apply get_packet_type_spec|eexists; apply get_srt_sequence_number_spec
  |eexists; apply is_srt_data_retransmit_spec
  |apply total_extract_keepalive_timestamp|apply total_extract_keepalive_conn_info
  |eexists; apply parse_srt_ack_spec|eexists; apply parse_srt_nak_spec|eexists; apply parse_srtla_ack_spec
  |apply total_is_srtla_reg1|apply total_is_srtla_reg2|apply total_is_srtla_reg3].
Qed.

(** At most 1000 range-expanded entries plus one per 4 payload bytes. *)
Theorem C15_nak_bound : forall b v,
  parse_srt_nak b = Ok v -> blen v <= 1000 + (blen b - 4) / 4 /\ (blen b < 8 -> v = []).
Proof. exact parse_srt_nak_bound. Qed.

(** Index-based decoders = declarative layouts (ACK number at 16..20, NAK range bit,
    data/control bit, R flag, big-endian throughout), hence the monitor holds of the model. *)
Theorem C15_decoders_match_layout : forall b, ok_dec b (model_dec b) = true.
Proof. exact model_dec_ok. Qed.
Theorem C15_layout_nak : forall b, parse_srt_nak b = Ok (spec_parse_srt_nak b).
Proof. exact parse_srt_nak_spec. Qed.
Theorem C15_layout_srtla_ack : forall b, parse_srtla_ack b = Ok (spec_parse_srtla_ack b).
Proof. exact parse_srtla_ack_spec. Qed.
Theorem C15_layout_srt_ack : forall b, parse_srt_ack b = Ok (spec_parse_srt_ack b).
Proof. exact parse_srt_ack_spec. Qed.
Theorem C15_layout_seq : forall b, get_srt_sequence_number b = Ok (spec_seq b).
Proof. exact get_srt_sequence_number_spec. Qed.
Theorem C15_layout_retransmit : forall b, is_srt_data_retransmit b = Ok (spec_retransmit b).
Proof. exact is_srt_data_retransmit_spec. Qed.

(** Every frame the sender builds decodes back to the values it was built from. *)
Theorem C15_roundtrip_reg1 : forall id, id_ok id ->
  blen (create_reg1_packet id) = 258 /\ is_srtla_reg1 (create_reg1_packet id) = Ok true /\
  skipn 2 (create_reg1_packet id) = id /\ firstn 2 (create_reg1_packet id) = [146; 0].
Proof.
  intros id [Hlen _]. destruct (reg_packet_layout SRTLA_TYPE_REG1 id) as (H1 & H2 & H3);
    [apply type_const_range|exact Hlen|].
  unfold is_srtla_reg1, create_reg1_packet. rewrite H1. repeat split; assumption || reflexivity.
Qed.
Theorem C15_roundtrip_reg2 : forall id, id_ok id ->
  blen (create_reg2_packet id) = 258 /\ is_srtla_reg2 (create_reg2_packet id) = Ok true /\
  skipn 2 (create_reg2_packet id) = id /\ firstn 2 (create_reg2_packet id) = [146; 1].
Proof.
  intros id [Hlen _]. destruct (reg_packet_layout SRTLA_TYPE_REG2 id) as (H1 & H2 & H3);
    [apply type_const_range|exact Hlen|].
  unfold is_srtla_reg2, create_reg2_packet. rewrite H1. repeat split; assumption || reflexivity.
Qed.
Theorem C15_roundtrip_ack : forall l, Forall (fun x => 0 <= x < two32) l ->
  parse_srtla_ack (create_ack_packet l) = Ok l.
Proof. exact ack_roundtrip. Qed.
Theorem C15_roundtrip_keepalive : forall now, 0 <= now < two64 ->
  extract_keepalive_timestamp (create_keepalive_packet now) = Ok (Some now) /\
  blen (create_keepalive_packet now) = 10.
Proof.
  intros now H. split; [|reflexivity].
  rewrite <- (app_nil_r (create_keepalive_packet now)). apply ka_ts_build, H.
Qed.
Theorem C15_roundtrip_keepalive_ext : forall info now, info_ok info -> 0 <= now < two64 ->
  let p := create_keepalive_packet_ext info now in
  blen p = 38 /\ firstn 10 p = create_keepalive_packet now /\
  extract_keepalive_timestamp p = Ok (Some now) /\ extract_keepalive_conn_info p = Ok (Some info).
Proof. exact ka_ext_roundtrip. Qed.

(** Non-vacuity: the hypotheses are satisfiable and the interesting branches are reached. *)
Example C15_nak_range_reached :
  parse_srt_nak [128; 3; 0; 0; 128; 0; 0; 5; 0; 0; 0; 7; 0; 0; 0; 9] = Ok [5; 6; 7; 9].
Proof. reflexivity. Qed.
Example C15_nak_cap_reached :
  blen (spec_parse_srt_nak [128; 3; 0; 0; 128; 0; 0; 0; 255; 255; 255; 255; 0; 0; 0; 9]) = 1001.
Proof.
  (* the range 0 .. 2^32-1 gets the whole fuel of 1000; the single entry 9 follows it *)
  change (blen (nak_expand (Z.to_nat (NAK_RANGE_CAP - blen (@nil Z))) 0 4294967295 [] ++ [9]) = 1001).
  rewrite BaseP.blen_snoc, nak_expand_full by (unfold NAK_RANGE_CAP, two32, blen; cbn [length]; lia). reflexivity.
Qed.
Example C15_info_ok_example : info_ok [42; 25000; -8; 120; 5; 2500000] /\ 0 <= 123456 < two64.
Proof. cbv. intuition congruence. Qed.
