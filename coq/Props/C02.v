(** Props/C02.v — property C02 "Per-link in-flight count equals packets sent and
    not yet retired".  Statements; the longer proofs are in Proofs/C02P.v. *)
From Srtla Require Import Base Constants Conn Run_Core ConnP CoreRunP Run_C02 SetP C02P.

Theorem constants_ok_C02 : ACK_FAST_PATH_RANGE = 64 /\ i32_min = -2147483648.
Proof. split; reflexivity. Qed.

(** [wf2]: registered sequence numbers are above i32::MIN (they are 31-bit, >= 0). *)

(** in-flight = |packet log|, log keys distinct, every logged number above the cumulative-ACK
    mark — after every history over any number of links. *)
Theorem C02_inflight_is_card : forall ids ops, Forall wf2 ops ->
  Forall (fun c => NoDup (keys c) /\ in_flight c = blen (log c) /\ 0 <= in_flight c /\
                   Forall (fun k => hwm c < k) (keys c))
         (links (run_from (init ids) ops)).
Proof.
  intros ids ops H. pose proof (reachable_inv2 ids ops H) as HI. unfold SInv2 in HI.
  eapply Forall_impl; [|exact HI]. intros c (Hn & Hi & Hh). repeat split; auto.
  rewrite Hi. apply BaseP.blen_nonneg.
Qed.

(** Refinement to the set specification: every op moves every link's set of outstanding
    numbers exactly by the retirement rules of the property text ([allowed]). *)
Theorem C02_refines_set_spec : forall s o, wf2 o -> SInv2 s ->
  SInv2 (step s o) /\ allowed o (obs_state s) (obs_state (step s o)) = true.
Proof. exact step_c02. Qed.

(** The effect of a cumulative ACK depends only on the current set and the ACK number —
    not on the high-water mark, i.e. not on the order or spacing of earlier ACKs, nor on which
    of the three code paths (early return / targeted removal / retain) runs. *)
Theorem C02_cumack_history_independent : forall c a, Inv2 c ->
  kset (handle_srt_ack c a) = filter (fun s => a <? s) (kset c) /\
  in_flight (handle_srt_ack c a) = blen (filter (fun s => a <? s) (kset c)).
Proof.
  intros c a HI. destruct (srt_ack_inv c a HI) as [(_ & Hi & _) Hk]. split; [exact Hk|].
  rewrite <- Hk, blen_kset. exact Hi.
Qed.

Theorem C02_foreign_untouched : forall c seq cl now, log_mem seq (log c) = false ->
  fst (handle_nak c seq now) = c /\ fst (handle_srtla_ack_specific c seq cl now) = c.
Proof. intros c seq cl now H. split; [apply nak_absent|apply specific_absent]; exact H. Qed.

Theorem C02_monitor_holds : forall ids ops, Forall wf2 ops ->
  check_with mon_C02 (model_case ids ops) = 0%N.
Proof. exact monitor_holds2. Qed.

(** Non-vacuity, and the history that failed before the `fix:` commit (register 5; ACK 10;
    register 3 — a retransmission of an already-acked number; ACK 12): in-flight is 0 again. *)
Example C02_regression_F1 :
  map in_flight (links (run_from (init [7]) [ORegister 0 5 1; OSrtAck 10 2; ORegister 0 3 3; OSrtAck 12 4])) = [0].
Proof. vm_compute. reflexivity. Qed.
Example C02_wf_nonvacuous : Forall wf2 [ORegister 0 5 1; OSrtAck 10 2; ORegister 0 3 3; OSrtAck 12 4; ONak 3 5].
Proof. repeat constructor; cbn; unfold i32_min, two31; lia. Qed.
Example C02_monitor_rejects_stuck_entry :
  check_with mon_C02 {| c_ids := [7]; c_init := obs_state (init [7]);
     c_steps := [(ORegister 0 5 1, [([0; 20000; 1; -2147483648; -1; 0; 0; 0; 0; 0; 0; 0; 0], [5])]);
                 (OSrtAck 10 2, [([0; 20000; 1; 10; -1; 0; 0; 0; 0; 0; 0; 0; 0], [5])])] |} <> 0%N.
Proof. vm_compute. discriminate. Qed.
